(* UpdateProofs.v — corollaries of UpdateErrProofs.decode_events: with callbacks that all return nil the
   calls are spec_calls (C16); Decode returns whatever the callbacks do (C05, C17). *)
From Verif Require Import Base Errors Update UpdateSpec UpdateErrProofs.

Definition nil_script (sc : script) : Prop := forall k, sc k = None.

Lemma attr_cb_events_nil sc : nil_script sc -> forall n k, attr_cb_events sc k n = ([], false, n).
Proof. intros Hnil. induction n as [|n IH]; intros k; cbn; [reflexivity|]. rewrite Hnil, IH. reflexivity. Qed.

Lemma spec_calls_script_nil sc b : nil_script sc -> spec_calls_script sc b = spec_calls b.
Proof.
  intros Hnil. unfold spec_calls_script, spec_calls. destruct (spec_sections b) as [[[W A] Nl]|]; [|reflexivity].
  destruct (attr_items A) as [items aend]. rewrite Hnil, (attr_cb_events_nil sc Hnil), firstn_all. reflexivity.
Qed.

Theorem decode_total sc b : exists calls e, update_decode sc b = Ok (calls, e).
Proof. destruct (decode_events sc b) as (e & H & _). eexists. eexists. exact H. Qed.

Theorem decode_total_nil sc b :
  nil_script sc -> wf_bytes b = true -> update_decode sc b <> Panic /\ update_decode sc b <> OutOfFuel.
Proof. intros _ _. destruct (decode_total sc b) as (c & e & ->). split; discriminate. Qed.

Lemma join2_some_l a b : a <> None -> join2 a b <> None.
Proof. destruct a, b; cbn; congruence. Qed.
Lemma join2_some_r a b : b <> None -> join2 a b <> None.
Proof. destruct a, b; cbn; congruence. Qed.
