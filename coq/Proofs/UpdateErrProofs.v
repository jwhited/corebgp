(* UpdateErrProofs.v — C16/C17 for arbitrary callbacks: UpdateDecoder.Decode against the RFC split.
   One theorem (decode_events) says what Decode does for every byte string and every callback
   behaviour: it makes exactly the specification's calls, cut where a callback's error contains a
   Notification, and the error it returns is nil iff the specification lists no event and otherwise
   a tree whose leaves are those of the events, in order.  The statements of the properties,
   also those about nil callbacks in UpdateProofs.v, are read off it; those that name the error
   itself and not only its leaves (a body with inconsistent section lengths, C16.c16_overrun_first) are
   read off update_decode_sections, where Decode is opened. *)
From Verif Require Import Base Consts Packet Errors Update UpdateSpec BaseLemmas ErrorProofs.

Lemma oleaves_join2 a b : oleaves (join2 a b) = oleaves a ++ oleaves b.
Proof. destruct a, b; cbn; rewrite ?app_nil_r; reflexivity. Qed.
Lemma oleaves_olist e : oleaves e = flat_map leaves (olist e).
Proof. destruct e; cbn; rewrite ?app_nil_r; reflexivity. Qed.

(* update.go's  if err != nil { merr = errors.Join(merr, err) } , for one error and for a list *)
Definition accum (me e : option err) : option err := match e with Some _ => join2 me e | None => me end.
Definition joins (me : option err) (evs : list err) : option err :=
  fold_left (fun me x => join2 me (Some x)) evs me.

(* what can be said of an accumulated error without fixing how the joins nest: it is nil iff
   nothing was joined, and its leaves are those of the joined errors, in order *)
Definition collects (e : option err) (evs : list err) : Prop :=
  oleaves e = flat_map leaves evs /\ (e = None <-> evs = []).

Lemma collects_olist e : collects e (olist e).
Proof. split; [apply oleaves_olist|]. destruct e; split; (reflexivity || discriminate). Qed.
Lemma collects_nil : collects None [].
Proof. exact (collects_olist None). Qed.
Lemma collects_accum me e l l' : collects me l -> collects e l' -> collects (accum me e) (l ++ l').
Proof.
  intros [L N] [L' N']. destruct e as [x|]; cbn [accum].
  - split; [rewrite oleaves_join2, flat_map_app, L, L'; reflexivity|].
    split; [destruct me; discriminate|]. intros H. apply app_eq_nil in H as [_ H]. apply N' in H. discriminate.
  - rewrite (proj1 N' eq_refl), app_nil_r. split; assumption.
Qed.
Lemma collects_joins evs : forall me l, collects me l -> collects (joins me evs) (l ++ evs).
Proof.
  induction evs as [|x evs IH]; intros me l H; [rewrite app_nil_r; exact H|].
  change (x :: evs) with ([x] ++ evs). rewrite app_assoc. apply IH.
  exact (collects_accum me (Some x) l [x] H (collects_olist (Some x))).
Qed.
Lemma collects_has_notif e l : collects e l -> has_notif_o e = existsb has_notif l.
Proof.
  intros [L _]. rewrite <- has_notif_join, has_notif_leaves, leaves_join, <- L.
  destruct e; [apply has_notif_leaves|reflexivity].
Qed.
(* UpdateNotificationFromErr of such an error is the first-by-severity choice over the events *)
Lemma collects_unfe x evs : collects (Some x) evs -> unfe (Some x) = spec_unfe (Some (EJoin evs)).
Proof.
  intros [L _]. rewrite <- unfe_spec. apply unfe_leaves. rewrite leaves_join. exact L.
Qed.

(* the errors returned by the callbacks with script indices k .. k+n-1 *)
Definition cb_errors (sc : script) (k n : nat) : list err := flat_map (fun j => olist (sc j)) (seq k n).

Lemma cb_errors_1 sc k : cb_errors sc k 1 = olist (sc k).
Proof. apply app_nil_r. Qed.

Lemma cb_errors_app sc k n m : cb_errors sc k (n + m) = cb_errors sc k n ++ cb_errors sc (k + n) m.
Proof. unfold cb_errors. rewrite seq_app, flat_map_app. reflexivity. Qed.

Lemma cb_errors_nil sc k n : cb_errors sc k n = [] -> forall j, (k <= j < k + n)%nat -> sc j = None.
Proof.
  unfold cb_errors. intros H j Hj. destruct (sc j) as [e|] eqn:E; [|reflexivity].
  assert (In e []) as []. rewrite <- H. apply in_flat_map. exists j. rewrite E.
  split; [apply in_seq; exact Hj|left; reflexivity].
Qed.

(* what attr_cb_events returns: the errors of the c callbacks that ran; all n ran unless one stopped
   the walk, and that one's is the only error that contains a Notification *)
Lemma attr_cb_events_spec sc : forall n k,
  let '(l, s, c) := attr_cb_events sc k n in
  l = cb_errors sc k c /\ (c <= n)%nat /\ (s = false -> c = n) /\ existsb has_notif l = s.
Proof.
  unfold cb_errors. induction n as [|n IH]; intros k; cbn [attr_cb_events]; [repeat split; auto|].
  specialize (IH (S k)). destruct (sc k) as [e|] eqn:E; [destruct (has_notif e) eqn:En|].
  1: { cbn. rewrite E, En. repeat split; (lia || discriminate). }
  (* an error without a Notification, or nil: the walk goes on *)
  all: destruct (attr_cb_events sc (S k) n) as [[l s] c]; destruct IH as (-> & Hc & Ha & Hs);
    cbn; rewrite E, ?En; repeat split; [lia|intros H; f_equal; exact (Ha H)|exact Hs].
Qed.

(* Decode up to the attribute block; update_decode is opened here and nowhere else *)
Lemma update_decode_sections sc b :
  update_decode sc b =
  match spec_sections b with
  | None => Ok ([], Some (ENotif (mkNotif 3 (if blen b <? 4 then 0 else 1) [])))
  | Some (W, A, Nl) =>
      if has_notif_o (sc O) then Ok ([CWr W], accum None (sc O)) else
      do pr <- decode_path_attrs sc A (0 <? blen Nl) 1;
      let '(pcalls, k, pe) := pr in
      if has_notif_o pe then Ok (CWr W :: pcalls, accum (accum None (sc O)) pe)
      else Ok (CWr W :: pcalls ++ [CNl Nl], accum (accum (accum None (sc O)) pe) (sc k))
  end.
Proof.
  unfold update_decode, spec_sections. destruct b as [|w1 [|w0 r]]; try reflexivity.
  destruct (blen (w1 :: w0 :: r) <? 4); [reflexivity|]. cbn [orb]. unfold get16. set (wrl := w1 * 256 + w0).
  destruct (blen r <? wrl + 2) eqn:E1; [reflexivity|].
  rewrite slice_spec, slice_from_spec, slice_to_spec by lia. cbn [of_opt rbind].
  replace (wrl + 2 - wrl) with 2 by lia.
  replace (drop (wrl + 2) r) with (drop 2 (drop wrl r)) by (unfold drop; rewrite skipn_skipn'; f_equal; lia).
  pose proof (blen_drop wrl r) as Hd.
  destruct (drop wrl r) as [|p1 [|p0 r2]]; [cbn in Hd; lia|cbn in Hd; lia|]. clear Hd.
  change (take 2 (p1 :: p0 :: r2)) with [p1; p0]. change (drop 2 (p1 :: p0 :: r2)) with r2. cbv iota beta.
  destruct (blen r2 <? p1 * 256 + p0) eqn:E2; [reflexivity|].
  rewrite slice_to_spec, slice_from_spec by lia. cbn [of_opt rbind].
  destruct (sc O) as [e0|]; [destruct (has_notif e0) eqn:E0; cbn [has_notif_o]; rewrite E0|]; reflexivity.
Qed.

Lemma flag_extlen_spec flags : flag_extlen flags = (16 <=? flags mod 32).
Proof. unfold flag_extlen. lia. Qed.

Lemma attr_header_spec flags r : attr_header flags r = spec_attr_header flags r.
Proof. unfold attr_header, spec_attr_header. rewrite flag_extlen_spec. reflexivity. Qed.

Lemma attr_header_shorter flags r len r' : attr_header flags r = Some (len, r') -> (length r' < length r)%nat.
Proof.
  unfold attr_header. intros H.
  destruct (flag_extlen flags), r as [|l1 [|l0 r0]]; try discriminate; injection H as <- <-; cbn; lia.
Qed.

(* The attribute loop is taken in two steps.  pa_items is the loop run on the items and the end that
   the specification's walk finds instead of on the bytes: pa_loop_items says the loop parses as
   spec_attrs does, and is the only induction over path_attrs_loop.  What the callbacks make of the
   items is then a matter of lists (pa_items_events). *)
Definition pa_step (sc : script) (t : N * N * bytes) (st : pa_state) : pa_state :=
  mkPa (pa_calls st ++ [item_call t]) (accum (pa_me st) (sc (pa_k st))) (item_code t :: pa_seen st) (S (pa_k st)).

Definition pa_finish (aend : attrs_end) (h : bool) (st : pa_state) : pa_state * option err :=
  match aend with
  | EndClean => (st, missing_check st h)
  | EndOverrun c =>
      let st' := mkPa (pa_calls st) (join2 (pa_me st) (Some (total_attr_len_err c))) (pa_seen st) (pa_k st) in
      (st', missing_check st' h)
  | EndDupMP => (st, join2 (pa_me st) (Some (ENotif malformed_attr_list)))
  end.

Fixpoint pa_items (sc : script) (h : bool) (items : list (N * N * bytes)) (aend : attrs_end) (st : pa_state)
  : pa_state * option err :=
  match items with
  | [] => pa_finish aend h st
  | t :: items' =>
      if has_notif_o (sc (pa_k st)) then (pa_step sc t st, pa_me (pa_step sc t st))
      else pa_items sc h items' aend (pa_step sc t st)
  end.

Lemma pa_loop_items sc : forall f a h st,
  (length a < f)%nat ->
  path_attrs_loop f sc a h st = Ok (let (items, aend) := spec_attrs f a (pa_seen st) in pa_items sc h items aend st).
Proof.
  induction f as [|f IH]; intros a h st Hf; [lia|].
  cbn [path_attrs_loop spec_attrs].
  destruct a as [|flags [|code r]]; try reflexivity.
  rewrite <- attr_header_spec.
  destruct (attr_header flags r) as [[len r']|] eqn:Eh; [|reflexivity].
  apply attr_header_shorter in Eh.
  destruct (blen r' <? len) eqn:El; [reflexivity|].
  pose proof (drop_length len r') as Hfd. cbn [length] in Hf.
  rewrite slice_to_spec, slice_from_spec by lia. cbn [of_opt rbind].
  fold (seen (pa_seen st) code). destruct (seen (pa_seen st) code).
  - change c_PATH_ATTR_MP_REACH_NLRI with 14. change c_PATH_ATTR_MP_UNREACH_NLRI with 15.
    destruct ((code =? 14) || (code =? 15)); [reflexivity|]. apply IH. lia.
  - rewrite IH by lia. cbn [pa_seen].
    destruct (spec_attrs f (drop len r') (code :: pa_seen st)) as [items aend]. cbn [pa_items]. unfold pa_step.
    destruct (sc (pa_k st)) as [e|]; [cbn [has_notif_o]; destruct (has_notif e)|]; reflexivity.
Qed.

Definition end_events (aend : attrs_end) (miss : list err) : list err :=
  match aend with
  | EndDupMP => [ENotif malformed_attr_list]
  | EndOverrun c => total_attr_len_err c :: miss
  | EndClean => miss
  end.
Definition miss_of (seen_codes : list N) (h : bool) : list err :=
  if (seen seen_codes c_PATH_ATTR_MP_REACH_NLRI || h)
     && (negb (seen seen_codes c_PATH_ATTR_AS_PATH) || negb (seen seen_codes c_PATH_ATTR_ORIGIN))
  then let missing := if negb (seen seen_codes c_PATH_ATTR_ORIGIN) then c_PATH_ATTR_ORIGIN else c_PATH_ATTR_AS_PATH in
       [ETaw missing (Some (upd_err c_NOTIF_SUBCODE_MISSING_WELL_KNOWN_ATTR [missing]))]
  else [].

Lemma missing_check_joins st h : missing_check st h = joins (pa_me st) (miss_of (pa_seen st) h).
Proof.
  unfold miss_of, missing_check.
  destruct (seen (pa_seen st) c_PATH_ATTR_MP_REACH_NLRI || h); [|reflexivity].
  destruct (negb (seen (pa_seen st) c_PATH_ATTR_AS_PATH) || negb (seen (pa_seen st) c_PATH_ATTR_ORIGIN)); reflexivity.
Qed.

Lemma miss_of_spec l items Nl :
  (forall c, seen l c = existsb (N.eqb c) (map item_code items)) ->
  miss_of l (0 <? blen Nl) = missing_event items Nl.
Proof.
  intros Hs. unfold miss_of, missing_event, missing_attrs.
  change c_PATH_ATTR_MP_REACH_NLRI with 14. change c_PATH_ATTR_AS_PATH with 2. change c_PATH_ATTR_ORIGIN with 1.
  rewrite !Hs.
  destruct (existsb (N.eqb 14) (map item_code items)), (0 <? blen Nl),
           (existsb (N.eqb 1) (map item_code items)), (existsb (N.eqb 2) (map item_code items)); reflexivity.
Qed.

Lemma missing_event_no_notif items Nl : existsb has_notif (missing_event items Nl) = false.
Proof. unfold missing_event. destruct (missing_attrs items Nl); reflexivity. Qed.

(* what decode_path_attrs keeps of the loop's result *)
Definition pa_out (r : pa_state * option err) : list call * nat * option err :=
  (pa_calls (fst r), pa_k (fst r), snd r).

Lemma pa_finish_out aend h st :
  pa_out (pa_finish aend h st) = (pa_calls st, pa_k st, joins (pa_me st) (end_events aend (miss_of (pa_seen st) h))).
Proof. destruct aend; cbn [pa_finish pa_out fst snd]; rewrite ?missing_check_joins; reflexivity. Qed.

Lemma pa_items_events sc h aend : forall items st,
  pa_out (pa_items sc h items aend st) =
  let '(cbs, stopped, n) := attr_cb_events sc (pa_k st) (length items) in
  (pa_calls st ++ map item_call (firstn n items), (pa_k st + n)%nat,
   joins (pa_me st) (cbs ++ if stopped then [] else end_events aend (miss_of (rev (map item_code items) ++ pa_seen st) h))).
Proof.
  induction items as [|t items IH]; intros st.
  - cbn. rewrite pa_finish_out, app_nil_r, Nat.add_0_r. reflexivity.
  - cbn [pa_items length attr_cb_events map rev]. rewrite <- app_assoc.
    destruct (sc (pa_k st)) as [e|] eqn:Esc; cbn [has_notif_o]; [destruct (has_notif e)|].
    1: { unfold pa_out, pa_step. cbn. rewrite Esc, Nat.add_1_r. reflexivity. }
    all: rewrite IH; cbn [pa_step pa_calls pa_k pa_me pa_seen]; rewrite Esc;
      destruct (attr_cb_events sc (S (pa_k st)) (length items)) as [[l s] c];
      cbn [firstn map]; rewrite <- app_assoc, Nat.add_succ_r; reflexivity.
Qed.

Lemma decode_path_attrs_spec sc A h k :
  decode_path_attrs sc A h k =
  Ok (let (items, aend) := attr_items A in
      let '(cbs, stopped, n) := attr_cb_events sc k (length items) in
      (map item_call (firstn n items), (k + n)%nat,
       joins None (cbs ++ if stopped then [] else end_events aend (miss_of (rev (map item_code items)) h)))).
Proof.
  unfold decode_path_attrs, attr_items. rewrite pa_loop_items by lia. cbn [pa_seen].
  destruct (spec_attrs (S (length A)) A []) as [items aend].
  pose proof (pa_items_events sc h aend items (mkPa [] None [] k)) as H.
  cbn [pa_calls pa_k pa_me pa_seen app] in H. rewrite app_nil_r in H. rewrite <- H.
  destruct (pa_items sc h items aend (mkPa [] None [] k)). reflexivity.
Qed.

(* C16/C17, any callback behaviour (stateful, any error class at any position) *)
Theorem decode_events sc b :
  exists e, update_decode sc b = Ok (spec_calls_script sc b, e) /\ collects e (spec_err_events sc b).
Proof.
  rewrite update_decode_sections. unfold spec_calls_script, spec_err_events.
  destruct (spec_sections b) as [[[W A] Nl]|].
  2:{ eexists. split; [reflexivity|]. exact (collects_olist (Some _)). }
  rewrite decode_path_attrs_spec. destruct (attr_items A) as [items aend].
  pose proof (collects_accum None (sc O) [] _ collects_nil (collects_olist _)) as H0. cbn [app] in H0.
  destruct (has_notif_o (sc O)); [eexists; split; [reflexivity|exact H0]|].
  rewrite (miss_of_spec _ items Nl) by (intros c; unfold seen; apply existsb_rev).
  pose proof (attr_cb_events_spec sc (length items) 1) as Hcb.
  destruct (attr_cb_events sc 1 (length items)) as [[cbs stopped] n]. destruct Hcb as (_ & _ & Hall & Hst).
  cbn [rbind].
  (* pe, the attribute loop's error, collects evs; whether Decode goes on to the NLRI is has_notif_o pe *)
  pose (evs := cbs ++ if stopped then [] else end_events aend (missing_event items Nl)).
  pose proof (collects_joins evs None [] collects_nil) as Hpe. cbn [app] in Hpe.
  pose proof (collects_accum _ _ _ _ H0 Hpe) as H1.
  subst evs. rewrite (collects_has_notif _ _ Hpe), existsb_app, Hst.
  destruct stopped; cbn [orb].
  { rewrite (app_nil_r (map item_call _)). eexists. split; [reflexivity|]. exact H1. }
  rewrite (Hall eq_refl), firstn_all.
  destruct aend as [|c|]; cbn [end_events existsb has_notif orb] in *;
    rewrite ?missing_event_no_notif, ?(app_nil_r (map item_call _)); eexists; (split; [reflexivity|]).
  3: exact H1.
  (* a clean end or an overrun: the NLRI callback runs, and its error is joined last *)
  all: pose proof (collects_accum _ _ _ _ H1 (collects_olist (sc (1 + length items)%nat))) as H2;
    rewrite <- !app_assoc in H2; exact H2.
Qed.

Inductive subseq_of {A} : list A -> list A -> Prop :=
| sub_nil : forall l, subseq_of [] l
| sub_keep : forall x a b, subseq_of a b -> subseq_of (x :: a) (x :: b)
| sub_skip : forall x a b, subseq_of a b -> subseq_of a (x :: b).

Lemma subseq_refl {A} (l : list A) : subseq_of l l.
Proof. induction l; constructor; assumption. Qed.
Lemma subseq_skip_l {A} (a b c : list A) : subseq_of a c -> subseq_of a (b ++ c).
Proof. intros H. induction b; cbn; [exact H|constructor; assumption]. Qed.
Lemma subseq_app {A} (a b c d : list A) : subseq_of a b -> subseq_of c d -> subseq_of (a ++ c) (b ++ d).
Proof. induction 1; intros Hc; cbn; [apply subseq_skip_l; exact Hc|constructor; auto..]. Qed.

(* C17, "the returned error tree contains every error the callbacks returned up to the point decoding
   stopped", in order: the callback errors of the calls that were made are a subsequence of the events *)
Theorem callback_errors_contained sc b :
  subseq_of (cb_errors sc 0 (length (spec_calls_script sc b))) (spec_err_events sc b).
Proof.
  unfold spec_calls_script, spec_err_events.
  destruct (spec_sections b) as [[[W A] Nl]|]; [|constructor].
  destruct (attr_items A) as [items aend].
  destruct (has_notif_o (sc O)) eqn:E0.
  { cbn [length]. rewrite cb_errors_1. apply subseq_refl. }
  pose proof (attr_cb_events_spec sc (length items) 1) as H.
  destruct (attr_cb_events sc 1 (length items)) as [[cbs stopped] ncalled]. destruct H as (-> & Hn & Ha & _).
  cbn [length]. rewrite app_length, map_length, firstn_length_le by exact Hn.
  change (S (ncalled + ?x)) with (1 + (ncalled + x))%nat.
  rewrite !cb_errors_app, cb_errors_1. cbn [Nat.add].
  apply subseq_app; [apply subseq_refl|]. apply subseq_app; [apply subseq_refl|].
  (* what is left is the NLRI callback's error, if that callback ran, against the events after the attributes' *)
  destruct stopped; [constructor|]. rewrite (Ha eq_refl).
  destruct aend as [|c|]; cbn [length]; rewrite ?cb_errors_1.
  - apply subseq_skip_l, subseq_refl.
  - constructor. apply subseq_skip_l, subseq_refl.
  - constructor.
Qed.

