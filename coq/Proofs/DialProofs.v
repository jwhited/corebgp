(* DialProofs.v — C11 pacing over timed runs of any length. *)
From Verif Require Import Base Dial.
From Coq Require Import ZifyBool.

Fixpoint last_idle (l : list (N * bool)) : option N :=
  match l with [] => None | (t, true) :: _ => Some t | (_, false) :: r => last_idle r end.
Definition last_any (l : list (N * bool)) : option N := match l with [] => None | (t, _) :: _ => Some t end.
Definition after (o : option N) (gap t : N) : Prop := match o with Some t0 => t0 + gap <= t | None => True end.

(* spacing of the recorded dial attempts: each attempt made from Idle comes at least the idle-hold time
   after the previous attempt made from Idle; each attempt made on connect-retry expiry comes at least
   the connect-retry time after the previous attempt of any kind *)
Fixpoint spaced (cf : dconf) (l : list (N * bool)) : Prop :=
  match l with
  | [] => True
  | (t, true) :: r => after (last_idle r) (dc_idle_hold cf) t /\ spaced cf r
  | (t, false) :: r => after (last_any r) (dc_connect_retry cf) t /\ spaced cf r
  end.

Definition dinv (cf : dconf) (s : dstate) : Prop :=
  spaced cf (ds_dials s)
  /\ (* the idle-hold timer was last armed at the last attempt made from Idle *)
     (match last_idle (ds_dials s) with
      | Some t => ds_idle s = Some (t + dc_idle_hold cf)
      | None => True
      end)
  /\ (* while a connect-retry timer is armed its deadline is at least the connect-retry time after the last attempt *)
     (match ds_retry s with
      | Some dl => after (last_any (ds_dials s)) (dc_connect_retry cf) dl
      | None => True
      end)
  /\ (* attempts lie in the past *)
     after (last_any (ds_dials s)) 0 (ds_now s).

Lemma dinv_init cf t0 : dinv cf (dinit t0).
Proof. repeat split. Qed.

(* the pacing does not depend on the phase. A step advances the clock and either leaves the attempts and the idle-hold
   timer alone (stopping or restarting the connect-retry timer), or makes an attempt from Idle, the idle-hold timer
   being due, or makes one on connect-retry expiry *)
Lemma dstep_shape cf s d i s' :
  dstep cf s d i = Some s' ->
  let now := ds_now s + d in
  let retry := Some (now + dc_connect_retry cf) in
  ds_now s' = now /\
  (ds_dials s' = ds_dials s /\ ds_idle s' = ds_idle s /\ (ds_retry s' = None \/ ds_retry s' = retry)
   \/ ddue (ds_idle s) now = true /\ ds_dials s' = (now, true) :: ds_dials s
      /\ ds_idle s' = Some (now + dc_idle_hold cf) /\ ds_retry s' = retry
   \/ ddue (ds_retry s) now = true /\ ds_dials s' = (now, false) :: ds_dials s
      /\ ds_idle s' = ds_idle s /\ ds_retry s' = retry).
Proof.
  unfold dstep. destruct (ds_phase s), i; try discriminate;
    try (destruct (ddue _ _) eqn:Ed; [|discriminate]); intros [= <-]; cbn; auto 7.
Qed.

Lemma after_mono o g t g' t' : after o g t -> t + g' <= t' + g -> after o g' t'.
Proof. destruct o; cbn; lia. Qed.

Theorem dstep_inv cf s d i s' : dinv cf s -> dstep cf s d i = Some s' -> dinv cf s'.
Proof.
  intros (Hsp & Hid & Hre & Hpast) Hs. apply dstep_shape in Hs as [Hn Hs]. unfold dinv. rewrite Hn.
  destruct Hs as [(-> & -> & Hr)|[(Hd & -> & -> & ->)|(Hd & -> & -> & ->)]]; cbn [spaced last_idle last_any after];
    repeat split; try assumption; try lia.
  (* what is left: the connect-retry deadline and the clock after a step of the first kind; the distance of a new
     attempt from the one it is measured against *)
  - destruct Hr as [-> | ->]; [exact I|]. apply (after_mono _ _ _ _ _ Hpast). lia.
  - apply (after_mono _ _ _ _ _ Hpast). lia.
  - destruct (last_idle (ds_dials s)); [|exact I]. rewrite Hid in Hd. cbn [ddue after] in *. lia.
  - destruct (ds_retry s); [|discriminate]. apply (after_mono _ _ _ _ _ Hre). cbn [ddue] in Hd. lia.
Qed.

Theorem drun_inv cf : forall ins s s', dinv cf s -> drun cf s ins = Some s' -> dinv cf s'.
Proof.
  induction ins as [|[d i] r IH]; intros s s' Hi Hr; cbn [drun] in Hr.
  - injection Hr as <-. exact Hi.
  - destruct (dstep cf s d i) as [s1|] eqn:Es; [|discriminate].
    eapply IH; [eapply dstep_inv; eassumption|exact Hr].
Qed.

(* successive entries of a log of dial attempts (newest first) are at least gap apart: what
   C11.c11_refused_attempts_spaced says of the attempts when every one is refused before the
   connect-retry time, with the idle-hold time as gap *)
Fixpoint consecutive_gap (gap : N) (l : list (N * bool)) : Prop :=
  match l with
  | (t1, _) :: (((t2, _) :: _) as r) => t2 + gap <= t1 /\ consecutive_gap gap r
  | _ => True
  end.
