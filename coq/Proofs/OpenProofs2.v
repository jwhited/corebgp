(* OpenProofs2.v — C02: received OPEN against the acceptability specification. *)
From Verif Require Import Base Consts Packet PacketSpec OpenSpec BaseLemmas PacketProofs.

Lemma is_multicast4_spec id : is_multicast4 id = multicast_id id.
Proof. unfold is_multicast4, multicast_id. lia. Qed.

Lemma get32_be32_eq a b c d r : a < 256 -> b < 256 -> c < 256 -> d < 256 ->
  (get32 a b c d =? r) = beqb [a; b; c; d] (be32 r).
Proof.
  intros Ha Hb Hc Hd. apply eq_true_iff_eq. rewrite N.eqb_eq, beqb_eq. split.
  - intros <-. symmetry. apply be32_get32; assumption.
  - unfold be32. intros [= -> -> -> ->]. apply put32_get32. lia.
Qed.

(* one step of the capability scan: a 4-octet-AS capability whose value is not the peer's AS number
   stops it, with subcode 2 if the value has four octets and 0 otherwise *)
Lemma validate_caps_cons ras c cs found :
  cap_repr c = true ->
  validate_caps ras (c :: cs) found =
  if as4_ok ras c then validate_caps ras cs (found || is_as4 c)
  else Err (open_err (if blen (cap_val c) =? 4 then 2 else 0) []).
Proof.
  intros Hc. apply andb_true_iff in Hc as [Hc _]. apply andb_true_iff in Hc as [_ Hw].
  cbn [validate_caps]. unfold as4_ok, is_as4. change c_CAP_FOUR_OCTET_AS with 65.
  destruct (cap_code c =? 65); cbn [negb orb]; [|rewrite orb_false_r; reflexivity].
  destruct (cap_val c) as [|a [|b [|c0 [|d [|e r]]]]]; rewrite ?blen_cons, ?blen_nil;
    try (rewrite beqb_len_ne by (rewrite ?blen_cons, ?blen_nil; change (blen (be32 ras)) with 4; lia);
         destruct (_ =? 4) eqn:E4; [lia|reflexivity]).
  do 4 (apply wf_bytes_cons_iff in Hw as [? Hw]).
  rewrite <- get32_be32_eq, orb_true_r by assumption. destruct (get32 a b c0 d =? ras); reflexivity.
Qed.

Lemma validate_caps_spec ras : forall cs found,
  forallb cap_repr cs = true ->
  match validate_caps ras cs found with
  | Ok f => f = found || existsb is_as4 cs /\ forallb (as4_ok ras) cs = true
  | Err n => forallb (as4_ok ras) cs = false
             /\ (n = open_err 2 []
                 \/ (n = open_err 0 []
                     /\ existsb (fun c => is_as4 c && negb (blen (cap_val c) =? 4)) cs = true))
  | _ => False
  end.
Proof.
  induction cs as [|c cs IH]; intros found Hall.
  - cbn. rewrite orb_false_r. split; reflexivity.
  - cbn [forallb] in Hall. apply andb_true_iff in Hall as [Hc Hall].
    rewrite validate_caps_cons by assumption. cbn [existsb forallb].
    destruct (as4_ok ras c) eqn:Eok; cbn [andb].
    + specialize (IH (found || is_as4 c) Hall).
      destruct (validate_caps ras cs (found || is_as4 c)) as [f|n| |]; [| |assumption..].
      * rewrite orb_assoc. exact IH.
      * destruct IH as [Hf IH]. split; [exact Hf|].
        destruct IH as [->|[-> IH]]; [left; reflexivity|right]. rewrite IH, orb_true_r. split; reflexivity.
    + split; [reflexivity|]. unfold as4_ok in Eok. apply orb_false_iff in Eok as [->%negb_false_iff _].
      destruct (blen (cap_val c) =? 4); [left|right; split]; reflexivity.
Qed.

Lemma param_repr_caps ps :
  forallb param_repr ps = true -> forallb cap_repr (concat ps) = true.
Proof.
  rewrite !forallb_forall. intros H c (cs & Hcs & Hc)%in_concat.
  apply H, param_repr_iff in Hcs as (_ & Hall & _). rewrite forallb_forall in Hall. auto.
Qed.

(* open_validate is a chain of checks of which the first failing one decides; this is one link,
   against a conjunct ok of the acceptability predicate and the fault that the notification names *)
Lemma check_step (c ok acc : bool) (n : notif) (k : option notif) (fault : notif -> bool) :
  negb ok = c -> (c = true -> fault n = true) ->
  match k with None => acc = true | Some m => acc = false /\ fault m = true end ->
  match (if c then Some n else k) with
  | None => ok && acc = true
  | Some m => ok && acc = false /\ fault m = true
  end.
Proof. intros <- Hn Hk. destruct ok; cbn [negb andb]; auto. Qed.

Lemma open_validate_spec lid las ras o :
  ras < 4294967296 -> open_repr o = true ->
  match open_validate lid las ras o with
  | None => open_acceptable lid las ras o = true
  | Some n => open_acceptable lid las ras o = false /\ semantic_fault lid las ras o n = true
  end.
Proof.
  intros Hr (_ & _ & _ & _ & _ & Hall & _)%open_repr_iff.
  pose proof (validate_caps_spec ras (concat (o_params o)) false (param_repr_caps _ Hall)) as Hv.
  unfold open_validate, open_acceptable, semantic_fault, get_capabilities, c_asTrans.
  (* right-nested, so that each check_step takes one conjunct off *)
  rewrite <- !andb_assoc, is_multicast4_spec.
  set (caps := concat (o_params o)) in *.
  apply check_step; [reflexivity|intros ->; reflexivity|].
  apply check_step; [destruct (o_asn o =? ras), (o_asn o =? 23456); reflexivity
                    |intros H; apply andb_true_iff in H as [-> ->]; reflexivity|].
  apply check_step; [lia|intros H; replace ((o_hold o =? 1) || (o_hold o =? 2)) with true by lia; reflexivity|].
  apply check_step; [apply negb_involutive|intros ->; reflexivity|].
  apply check_step; [apply negb_involutive|intros ->; rewrite orb_true_r; reflexivity|].
  destruct (validate_caps ras caps false) as [f|n| |]; [| |contradiction..].
  - destruct Hv as [-> Hv]. rewrite Hv, andb_true_r. cbn [orb].
    destruct (existsb is_as4 caps); cbn [negb]; [rewrite andb_false_r; reflexivity|]. rewrite andb_true_r.
    destruct (o_asn o =? 23456); (split; [reflexivity|]).
    + destruct (o_asn o =? ras); reflexivity.
    + rewrite cap_encode_as4 by assumption. exact (beqb_refl _).
  - destruct Hv as [Hf Hv]. rewrite Hf. split; [apply andb_false_r|].
    destruct Hv as [->|[-> ->]]; [|reflexivity].
    destruct (o_asn o =? ras), (o_asn o =? 23456); reflexivity.
Qed.

Lemma handle_open_reject lid las ras b n :
  handle_open lid las ras b = OReject n ->
  open_decode b = Err n \/ exists o, open_decode b = Ok o /\ open_validate lid las ras o = Some n.
Proof.
  unfold handle_open. destruct (open_decode b) as [o|e| |]; try discriminate.
  - destruct (open_validate lid las ras o) eqn:E; [|discriminate]. intros [= <-]. right. exists o. auto.
  - intros [= <-]. auto.
Qed.

(* the grammar rejects the empty parameter list and an empty capabilities parameter with (2,0); an
   OPEN that is accepted, for comparison *)
Example empty_param_list_rejected :
  handle_open 167772161 65001 65000 [4; 253; 232; 0; 90; 10; 0; 0; 2; 0] = OReject (mkNotif 2 0 []).
Proof. vm_compute. reflexivity. Qed.
Example empty_caps_param_rejected :
  handle_open 167772161 65001 65000 [4; 253; 232; 0; 90; 10; 0; 0; 2; 2; 2; 0] = OReject (mkNotif 2 0 []).
Proof. vm_compute. reflexivity. Qed.
Example acceptable_example :
  handle_open 167772161 65001 65000 [4; 253; 232; 0; 90; 10; 0; 0; 2; 8; 2; 6; 65; 4; 0; 0; 253; 232]
  = OAccept 167772162 [mkCap 65 [0; 0; 253; 232]] 90.
Proof. vm_compute. reflexivity. Qed.
