(* OpenProofs.v — C14: the OPEN that is sent. *)
From Verif Require Import Base Consts Packet PacketSpec OpenSpec BaseLemmas PacketProofs.

Lemma new_open_message_intended asn hold id caps :
  asn < 4294967296 -> hold < 65536 ->
  new_open_message asn hold id caps = intended_open asn hold id caps.
Proof.
  intros Ha Hh. unfold new_open_message, intended_open, four_octet_cap, c_asTrans, c_CAP_FOUR_OCTET_AS.
  rewrite put32_be32, (u16_small hold), N.ltb_antisym by lia.
  destruct (asn <=? 65535) eqn:E; [rewrite u16_small by lia|]; reflexivity.
Qed.

Theorem open_sent_spec asn hold id caps :
  cfg_wf asn hold id caps = true ->
  open_encode (new_open_message asn hold id caps) =
  if open_repr (intended_open asn hold id caps)
  then Some (spec_frame_enc 1 (spec_open_body (intended_open asn hold id caps)))
  else None.
Proof.
  unfold cfg_wf. rewrite !andb_true_iff, !N.ltb_lt. intros [[[Ha Hh] Hi] Hcaps].
  rewrite new_open_message_intended by assumption.
  destruct (open_repr _) eqn:Er; [apply open_encode_spec, Er|].
  unfold open_encode.
  rewrite open_body_eq, Er; [reflexivity|unfold intended_open; cbn [o_ver o_asn o_hold o_id o_params]..].
  - lia.
  - destruct (asn <=? 65535) eqn:E; lia.
  - assumption.
  - assumption.
  - discriminate.
  - cbn [forallb]. rewrite andb_true_r. apply andb_true_intro. split.
    + unfold cap_wf, be32, wf_bytes, wf_byte; cbn [cap_code cap_val forallb]. lia.
    + rewrite forallb_forall in *. intros c [Hc _]%filter_In. auto.
Qed.

Example c14_example :
  cfg_wf 4200000001 90 167772161 [mkCap 1 [0;1;0;1]; mkCap 65 [1;2;3;4]; mkCap 69 [0;1;1;3]] = true
  /\ open_repr (intended_open 4200000001 90 167772161
                 [mkCap 1 [0;1;0;1]; mkCap 65 [1;2;3;4]; mkCap 69 [0;1;1;3]]) = true.
Proof. vm_compute. split; reflexivity. Qed.
