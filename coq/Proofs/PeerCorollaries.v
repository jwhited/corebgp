(* PeerCorollaries.v — Layer C: each check of the invariant holds of the reachable states (reachable_inv),
   and the facts about step and handle that the properties of Props/ are read off. *)
From Coq Require Import List Bool NArith Arith.
Import ListNotations.
From Verif Require Import Closure Peer PeerProofs.

Definition reachable (p d : bool) (s : sys) : Prop := exists tr, run sys label step (init p d) tr = Some s.

Lemma reachable_step p d s l s' : reachable p d s -> step s l = Some s' -> reachable p d s'.
Proof. intros [tr Hr] Hs. exists (tr ++ [l]). rewrite run_app, Hr. cbn. rewrite Hs. reflexivity. Qed.

Lemma reachable_inv p d s g : reachable p d s -> In g goods -> g s = true.
Proof. intros [tr Hr]. apply reachable_good in Hr as [Hr _]. exact (proj1 (forallb_forall _ _) Hr g). Qed.

Lemma reachable_step_inv p d s l s' :
  reachable p d s -> step s l = Some s' -> rank_ok s l s' = true /\ damp_ok s l s' = true.
Proof. intros [tr Hr] Hs. apply reachable_good in Hr as [_ Hr]. apply andb_true_iff, Hr, Hs. Qed.

Theorem stopped_means_gone p d s :
  reachable p d s -> s_mdone s = true ->
  fst (s_fsm s) = None /\ snd (s_fsm s) = None /\ s_ops s = [] /\ s_timer s = false.
Proof.
  intros Hr Hd. pose proof (reachable_inv _ _ _ good_done Hr ltac:(cbn; tauto)) as H.
  unfold good_done in H. rewrite Hd in H.
  destruct (fst (s_fsm s)), (snd (s_fsm s)), (s_ops s), (s_timer s); try discriminate. auto.
Qed.

Theorem cease_before_close p d s : reachable p d s -> fbad (fst (s_fsm s)) = false /\ fbad (snd (s_fsm s)) = false.
Proof.
  intros Hr. pose proof (reachable_inv _ _ _ good_cease Hr ltac:(cbn; tauto)) as H. unfold good_cease in H.
  destruct (fbad (fst (s_fsm s))), (fbad (snd (s_fsm s))); try discriminate. auto.
Qed.

Lemma step_frame s l s' :
  step s l = Some s' -> s_passive s' = s_passive s /\ s_dominant s' = s_dominant s
                        /\ (s_pclosed s = true -> s_pclosed s' = true).
Proof.
  destruct s as [ops sts fs hold tmr pcl mdn pas dom ref]. step_cases l; intros [= <-]; cbn; auto.
Qed.

Lemma run_passive tr s0 s : run sys label step s0 tr = Some s -> s_passive s = s_passive s0.
Proof.
  apply (run_inv sys label step (fun s => s_passive s = s_passive s0)); [|reflexivity].
  intros s1 l s2 <- Es. apply (step_frame _ _ _ Es).
Qed.

Theorem shutdown_rank p d s l s' :
  reachable p d s -> s_pclosed s = true -> progress_label s l = true -> step s l = Some s' -> rk s' < rk s.
Proof.
  intros Hr Hp Hl Hs. destruct (reachable_step_inv _ _ _ _ _ Hr Hs) as [H _].
  unfold rank_ok in H. rewrite Hp, Hl in H. apply Nat.ltb_lt. exact H.
Qed.

(* a sequence of n shutdown steps.  From a reachable state after Close none is longer than the rank
   (C10.c10_bounded), so every maximal one is finite and (by C10.c10_progress) ends with the manager done *)
Inductive shutdown_path : sys -> nat -> sys -> Prop :=
| sp_nil s : shutdown_path s 0 s
| sp_cons s l s1 n s2 : progress_label s l = true -> step s l = Some s1 -> shutdown_path s1 n s2 ->
                        shutdown_path s (S n) s2.

(* an inbound connection is refused exactly when the peer is busy; this holds of every state of the
   manager at its loop, reachable or not *)
Lemma inconn_step s s' :
  step s LMInConn = Some s' ->
  let busy := s_hold s || present (snd (s_fsm s)) || st_eqb (fst (s_state s)) Established in
  s_refused s' = busy /\ (busy = true -> core_eqb s s' = true)
  /\ (busy = false -> present (snd (s_fsm s')) = true /\ fconn (snd (s_fsm s')) = true).
Proof.
  cbn [step get]. fold (present (snd (s_fsm s))). destruct (at_loop s); [|discriminate].
  destruct (s_hold s || present (snd (s_fsm s)) || st_eqb (fst (s_state s)) Established) eqn:Eb;
    intros [= <-]; (split; [reflexivity|]).
  - split; [intros _; apply sys_eqb_refl|discriminate].
  - split; [discriminate|intros _].
    apply orb_false_iff in Eb as [Eb _]. apply orb_false_iff in Eb as [_ Eb].
    unfold enable. cbn [dir_eqb andb get]. destruct (snd (s_fsm s)); [discriminate|]. split; reflexivity.
Qed.

Theorem reachable_damp_ok p d tr s l s' :
  run sys label step (init p d) tr = Some s -> step s l = Some s' -> damp_ok s l s' = true.
Proof. intros Hr Hs. eapply reachable_step_inv; [exists tr|]; eassumption. Qed.

(* the local speaker is dominant iff its BGP Identifier is higher, ties broken by the higher AS *)
Definition dominant_of (local_id remote_id local_as remote_as : N) : bool :=
  (remote_id <? local_id)%N || ((local_id =? remote_id)%N && (remote_as <? local_as)%N).

(* handleStateTransition on a request for OpenConfirm that is not an inbound step down *)
Lemma handle_openconfirm s i t :
  t_to t = OpenConfirm -> (i = DIn -> st_ltb (t_to t) (t_from t) = false) ->
  handle s i t = match get (s_state s) (other i) with
                 | Established => [OStop i]
                 | OpenConfirm => if Bool.eqb (s_dominant s) (dir_eqb i DOut) then [OCollide i t] else [OStop i]
                 | _ => [OReply i t]
                 end.
Proof.
  intros Ht Hd. unfold handle. rewrite Ht in *. destruct i; [|rewrite (Hd eq_refl)]; reflexivity.
Qed.

