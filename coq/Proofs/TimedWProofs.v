(* TimedWProofs.v — C06 with local WriteUpdate calls (TimedW.v), for every timed run of any length and every
   interleaving of the connection's own inputs, plugin writes and the keep-alive manager's reset serving:
   the keep-alive timer is always armed while the session is up, no later than a third of the hold time after
   the last KEEPALIVE *or UPDATE* written plus the largest write-to-reset latency seen.  That hold-timer expiry
   is still never early and that with hold time 0 writes re-arm nothing follows in Props/C06.v. *)
From Verif Require Import Base Conn Timed TimedW TimedProofs.

(* The fifth conjunct is the point: the keep-alive timer's arm base is later than the last KEEPALIVE or UPDATE
   by at most the largest latency seen.  It is kept because every waiting token is no younger than the last
   UPDATE (the fourth), so that serving one raises xs_maxlat enough; the last conjunct counts resets against
   writes. *)
Definition xinv (xs : xstate) : Prop :=
  tinv (xs_t xs)
  /\ xs_last_ka xs <= ts_now (xs_t xs)
  /\ xs_last_upd xs <= ts_now (xs_t xs)
  /\ Forall (fun w => w <= xs_last_upd xs) (xs_pending xs)
  /\ ts_last_ka (xs_t xs) <= last_tx xs + xs_maxlat xs
  /\ xs_resets xs + N.of_nat (length (xs_pending xs)) <= xs_writes xs.

Lemma xinv_init t0 : xinv (xinit t0).
Proof.
  unfold xinv, xinit, last_tx. cbn [xs_t xs_last_ka xs_last_upd xs_pending xs_maxlat xs_resets xs_writes].
  repeat split; try apply tinv_init; try apply Forall_nil; cbn; lia.
Qed.

Lemma tinv_advance ts now : tinv ts -> ts_now ts <= now -> tinv (advance ts now).
Proof.
  intros [Hl Hi] Hn. split; [cbn [advance ts_last_ka ts_now]; lia|exact Hi].
Qed.

(* n writes at time now join the waiting tokens; each token is no younger than the last UPDATE *)
Lemma pending_add (l : list N) lu now n :
  Forall (fun w => w <= lu) l -> lu <= now ->
  Forall (fun w => w <= if Nat.eqb n 0 then lu else now) (l ++ repeat now n).
Proof.
  intros Hl Hn. apply Forall_app. destruct n; cbn [Nat.eqb]; split; [exact Hl|constructor| |].
  - revert Hl. apply Forall_impl. intros w Hw. lia.
  - apply Forall_forall. intros w ->%repeat_spec. lia.
Qed.

Lemma Forall_remove_nth {A} (P : A -> Prop) : forall k l, Forall P l -> Forall P (remove_nth k l).
Proof.
  induction k as [|k IH]; intros [|x r] H; cbn [remove_nth]; try exact H; inversion H; subst; [assumption|].
  constructor; [assumption|apply IH; assumption].
Qed.

Lemma length_remove_nth {A} : forall k (l : list A) w, nth_error l k = Some w -> S (length (remove_nth k l)) = length l.
Proof.
  induction k as [|k IH]; intros [|x r] w H; cbn in H; try discriminate; cbn [remove_nth length]; [reflexivity|].
  f_equal. eapply IH; exact H.
Qed.

Theorem xstep_inv cf pl xs d i xs' acts :
  xinv xs -> xstep cf pl xs d i = Some (xs', acts) -> xinv xs'.
Proof.
  intros (Ht & Hka & Hup & Hp & Hb & Hc) Hs. unfold xstep in Hs. unfold xinv, last_tx in *.
  destruct i as [ci|b|k].
  - (* a step of the connection *)
    destruct (tstep cf pl (xs_t xs) d ci) as [[ts' a]|] eqn:Et; [|discriminate].
    pose proof (tstep_inv _ _ _ _ _ _ _ Ht Et) as Ht'.
    destruct (tstep_facts _ _ _ _ _ _ _ Et) as [Hn Hl].
    destruct (est ts'); injection Hs as <- <-;
      cbn [xs_t xs_last_ka xs_last_upd xs_pending xs_maxlat xs_resets xs_writes length];
      rewrite Hn, Hl; (split; [exact Ht'|]).
    + (* Established after the step: the UPDATEs written in it (inside OnEstablished) wait for the manager *)
      rewrite app_length, repeat_length.
      repeat split; try (apply pending_add; [exact Hp|lia]);
        destruct (existsb is_ka_write a), (Nat.eqb (count_upd a) 0); lia.
    + (* the session is over and nothing waits any more *)
      repeat split; try apply Forall_nil; destruct (existsb is_ka_write a); lia.
  - (* a plugin's write *)
    destruct (est (xs_t xs)); [|discriminate]. injection Hs as <- <-.
    cbn [xs_t xs_last_ka xs_last_upd xs_pending xs_maxlat xs_resets xs_writes advance ts_now ts_last_ka].
    rewrite app_length. cbn [length]. split; [apply tinv_advance; [exact Ht|lia]|]. repeat split; try lia.
    apply (pending_add _ (xs_last_upd xs) _ 1); [exact Hp|lia].
  - (* the manager serves the token written at w *)
    destruct (est (xs_t xs)) eqn:Ee; [|discriminate].
    destruct (nth_error (xs_pending xs) k) as [w|] eqn:En; [|discriminate].
    pose proof (proj1 (Forall_forall _ _) Hp w (nth_error_In _ _ En)) as Hw. cbn beta in Hw.
    pose proof (length_remove_nth _ _ _ En) as Hlen.
    destruct (c_holdns (ts_conn (xs_t xs)) =? 0) eqn:E0; injection Hs as <- <-;
      cbn [xs_t xs_last_ka xs_last_upd xs_pending xs_maxlat xs_resets xs_writes advance rearm ts_now ts_last_ka];
      (split; [|repeat split; try lia; apply Forall_remove_nth; exact Hp]).
    + apply tinv_advance; [exact Ht|lia].
    + (* the re-armed state: Established, hold time not zero *)
      destruct Ht as [Hl Hi]. split; [cbn [rearm ts_now ts_last_ka]; lia|]. cbv zeta in *.
      cbn [rearm ts_conn ts_hold ts_ka ts_last_rx ts_last_ka]. unfold est in Ee.
      destruct (c_phase (ts_conn (xs_t xs))); try discriminate.
      exact (timers_rearm _ _ _ _ _ _ (proj1 (N.eqb_neq _ _) E0) Hi).
Qed.

Theorem xrun_inv cf pl : forall ins xs xs' acts, xinv xs -> xrun cf pl xs ins = Some (xs', acts) -> xinv xs'.
Proof.
  induction ins as [|[d i] r IH]; intros xs xs' acts Hi Hr; cbn [xrun] in Hr.
  - injection Hr as <- <-. exact Hi.
  - destruct (xstep cf pl xs d i) as [[xs1 a]|] eqn:Es; [|discriminate].
    destruct (xrun cf pl xs1 r) as [[xs2 a2]|] eqn:Er; [|discriminate]. injection Hr as <- <-.
    eapply IH; [eapply xstep_inv; eassumption|exact Er].
Qed.

Definition reachable_x cf pl (xs : xstate) : Prop := exists t0 ins acts, xrun cf pl (xinit t0) ins = Some (xs, acts).

Lemma reachable_xinv cf pl xs : reachable_x cf pl xs -> xinv xs.
Proof. intros (t0 & ins & acts & H). eapply xrun_inv; [apply xinv_init|exact H]. Qed.

(* without local writes the extended system is Timed.v: XConn steps are tstep on the embedded state *)
Theorem x_conn_is_tstep cf pl xs d i xs' acts :
  xstep cf pl xs d (XConn i) = Some (xs', acts) -> tstep cf pl (xs_t xs) d i = Some (xs_t xs', acts).
Proof.
  unfold xstep. destruct (tstep cf pl (xs_t xs) d i) as [[ts' a]|]; [|discriminate].
  destruct (est ts'); intros H; injection H as <- <-; reflexivity.
Qed.

Lemma x_conn_none cf pl xs d i : tstep cf pl (xs_t xs) d i = None -> xstep cf pl xs d (XConn i) = None.
Proof. unfold xstep. intros ->. reflexivity. Qed.

Lemma xstep_reset cf pl xs d k xs' acts :
  xstep cf pl xs d (XReset k) = Some (xs', acts) ->
  let h := c_holdns (ts_conn (xs_t xs)) in
  xs_pending xs <> [] /\ ts_conn (xs_t xs') = ts_conn (xs_t xs) /\ ts_hold (xs_t xs') = ts_hold (xs_t xs)
  /\ if h =? 0 then acts = [] /\ ts_ka (xs_t xs') = ts_ka (xs_t xs) /\ xs_resets xs' = xs_resets xs
     else acts = [AArmKA (h / 3)] /\ ts_ka (xs_t xs') = Some (ts_now (xs_t xs) + d + h / 3).
Proof.
  unfold xstep. destruct (est _); [|discriminate].
  destruct (nth_error _ _) eqn:En; [|discriminate].
  assert (xs_pending xs <> []) by (intros E; rewrite E in En; destruct k; discriminate).
  cbv zeta. destruct (_ =? 0); intros [= <- <-]; repeat split; assumption.
Qed.

Theorem x_keepalive_armed xs :
  xinv xs -> up (c_phase (ts_conn (xs_t xs))) = true -> c_holdns (ts_conn (xs_t xs)) <> 0 ->
  exists dl, ts_ka (xs_t xs) = Some dl /\ dl <= last_tx xs + c_holdns (ts_conn (xs_t xs)) / 3 + xs_maxlat xs.
Proof.
  intros (Ht & _ & _ & _ & Hb & _) Hup Hh.
  destruct (timers_running _ Ht Hup Hh) as (_ & dl & Hk & Hdl). exists dl. split; [exact Hk|lia].
Qed.

