(* BaseLemmas.v — arithmetic and list facts used by the codec proofs. *)
From Verif Require Import Base.
From Coq Require Import ZifyNat ZifyBool.
(* lets lia see through / and mod on N.  The setting is global: it holds in every file that requires
   this one, which therefore need neither repeat it nor require the Zify instances again *)
Ltac Zify.zify_post_hook ::= Z.div_mod_to_equations.

Lemma blen_nil : blen [] = 0. Proof. reflexivity. Qed.
Lemma blen_cons x b : blen (x :: b) = 1 + blen b.
Proof. unfold blen. cbn [length]. lia. Qed.
Lemma blen_app a b : blen (a ++ b) = blen a + blen b.
Proof. unfold blen. rewrite app_length. lia. Qed.
Lemma blen_0 b : blen b = 0 -> b = [].
Proof. destruct b; [reflexivity|]. rewrite blen_cons. lia. Qed.
Lemma blen_take n b : n <= blen b -> blen (take n b) = n.
Proof. unfold take, blen. rewrite firstn_length. lia. Qed.
Lemma blen_drop n b : blen (drop n b) = blen b - n.
Proof. unfold drop, blen. rewrite skipn_length. lia. Qed.
Lemma take_drop n b : take n b ++ drop n b = b.
Proof. apply firstn_skipn. Qed.
Lemma blen_repeat x n : blen (repeat x n) = N.of_nat n.
Proof. unfold blen. rewrite repeat_length. reflexivity. Qed.

Lemma take_app_le n (s x : bytes) : n <= blen s -> take n (s ++ x) = take n s.
Proof.
  intros H. unfold take. rewrite firstn_app.
  replace (N.to_nat n - length s)%nat with 0%nat by (unfold blen in H; lia).
  cbn. apply app_nil_r.
Qed.
Lemma drop_app_le n (s x : bytes) : n <= blen s -> drop n (s ++ x) = drop n s ++ x.
Proof.
  intros H. unfold drop. rewrite skipn_app.
  replace (N.to_nat n - length s)%nat with 0%nat by (unfold blen in H; lia). reflexivity.
Qed.
Lemma take_all b : take (blen b) b = b.
Proof. unfold take, blen. rewrite Nat2N.id. apply firstn_all. Qed.
Lemma drop_all b : drop (blen b) b = [].
Proof. unfold drop, blen. rewrite Nat2N.id. apply skipn_all. Qed.
Lemma take_app_exact a b : take (blen a) (a ++ b) = a.
Proof. rewrite take_app_le by lia. apply take_all. Qed.
Lemma drop_app_exact a b : drop (blen a) (a ++ b) = b.
Proof. rewrite drop_app_le, drop_all by lia. reflexivity. Qed.
Lemma take_0 b : take 0 b = []. Proof. reflexivity. Qed.
Lemma drop_0 b : drop 0 b = b. Proof. reflexivity. Qed.

Lemma wf_bytes_app a b : wf_bytes (a ++ b) = wf_bytes a && wf_bytes b.
Proof. apply forallb_app. Qed.
Lemma wf_bytes_cons x b : wf_bytes (x :: b) = wf_byte x && wf_bytes b.
Proof. reflexivity. Qed.
Lemma wf_bytes_take_drop n b : wf_bytes b = true -> wf_bytes (take n b) = true /\ wf_bytes (drop n b) = true.
Proof. intros H. rewrite <- (take_drop n b), wf_bytes_app in H. apply andb_true_iff, H. Qed.
Lemma wf_bytes_take n b : wf_bytes b = true -> wf_bytes (take n b) = true.
Proof. apply wf_bytes_take_drop. Qed.
Lemma wf_bytes_drop n b : wf_bytes b = true -> wf_bytes (drop n b) = true.
Proof. apply wf_bytes_take_drop. Qed.

Lemma beqb_refl b : beqb b b = true.
Proof. induction b as [|x b IH]; cbn; [reflexivity|]. rewrite N.eqb_refl. exact IH. Qed.
Lemma beqb_eq a b : beqb a b = true <-> a = b.
Proof.
  split; [|intros ->; apply beqb_refl].
  revert b; induction a as [|x a IH]; intros [|y b]; cbn; try discriminate; auto.
  intros H. apply andb_true_iff in H as [Hx Hb]. apply N.eqb_eq in Hx. subst. f_equal. auto.
Qed.

Lemma beqb_len_ne a b : blen a <> blen b -> beqb a b = false.
Proof.
  intros H. destruct (beqb a b) eqn:E; [|reflexivity]. apply beqb_eq in E. subst. congruence.
Qed.

Lemma slice_spec b lo hi :
  lo <= hi -> hi <= blen b -> slice b lo hi = Some (take (hi - lo) (drop lo b)).
Proof.
  intros H1 H2. unfold slice.
  destruct (lo <=? hi) eqn:E1; [|lia]. destruct (hi <=? blen b) eqn:E2; [|lia]. reflexivity.
Qed.
Lemma slice_from_spec b lo : lo <= blen b -> slice_from b lo = Some (drop lo b).
Proof. intros H. unfold slice_from. destruct (lo <=? blen b) eqn:E; [reflexivity|lia]. Qed.
Lemma slice_to_spec b hi : hi <= blen b -> slice_to b hi = Some (take hi b).
Proof. intros H. unfold slice_to. destruct (hi <=? blen b) eqn:E; [reflexivity|lia]. Qed.

Lemma drop_cons2 x y r n : drop (2 + n) (x :: y :: r) = drop n r.
Proof. unfold drop. replace (N.to_nat (2 + n)) with (S (S (N.to_nat n))) by lia. reflexivity. Qed.
Lemma drop_2 x y r : drop 2 (x :: y :: r) = r.
Proof. reflexivity. Qed.

Lemma put16_get16 x : get16 (x / 256) (x mod 256) = x.
Proof. unfold get16. lia. Qed.
Lemma get16_put16 a b : a < 256 -> b < 256 -> put16 (get16 a b) = [a; b].
Proof. unfold put16, get16. intros. f_equal; [|f_equal]; lia. Qed.
Lemma get16_lt a b : a < 256 -> b < 256 -> get16 a b < 65536.
Proof. unfold get16. lia. Qed.
Lemma get32_put32 a b c d : a < 256 -> b < 256 -> c < 256 -> d < 256 ->
  put32 (get32 a b c d) = [a; b; c; d].
Proof. unfold put32, get32. intros. repeat f_equal; lia. Qed.
Lemma get32_lt a b c d : a < 256 -> b < 256 -> c < 256 -> d < 256 -> get32 a b c d < 4294967296.
Proof. unfold get32. lia. Qed.
Lemma put32_get32 x : x < 4294967296 ->
  get32 (x / 16777216) ((x / 65536) mod 256) ((x / 256) mod 256) (x mod 256) = x.
Proof. unfold get32. intros. lia. Qed.

Lemma wf_byte_lt x : wf_byte x = true <-> x < 256.
Proof. unfold wf_byte. lia. Qed.

Lemma wf_bytes_cons_iff x b : wf_bytes (x :: b) = true <-> x < 256 /\ wf_bytes b = true.
Proof. rewrite wf_bytes_cons, andb_true_iff, wf_byte_lt. reflexivity. Qed.
Lemma wf4 a b c d r :
  wf_bytes (a :: b :: c :: d :: r) = true -> a < 256 /\ b < 256 /\ c < 256 /\ d < 256 /\ wf_bytes r = true.
Proof. intros H. do 4 (apply wf_bytes_cons_iff in H as [? H]). auto. Qed.

Lemma u8_small x : x < 256 -> u8 x = x.
Proof. apply N.mod_small. Qed.
Lemma u16_small x : x < 65536 -> u16 x = x.
Proof. apply N.mod_small. Qed.
Lemma u32_small x : x < 4294967296 -> u32 x = x.
Proof. apply N.mod_small. Qed.

Lemma length_blen_lt (a b : bytes) : blen a < blen b -> (length a < length b)%nat.
Proof. unfold blen. lia. Qed.
Lemma length_blen_le (a b : bytes) : blen a <= blen b -> (length a <= length b)%nat.
Proof. unfold blen. lia. Qed.
Lemma skipn_skipn' {A} (n m : nat) (l : list A) : skipn n (skipn m l) = skipn (m + n) l.
Proof.
  revert l; induction m as [|m IH]; intros l; [reflexivity|].
  destruct l; [rewrite !skipn_nil; reflexivity|]. cbn [skipn Nat.add]. apply IH.
Qed.

Lemma existsb_rev {A} (p : A -> bool) l : existsb p (rev l) = existsb p l.
Proof.
  induction l as [|x l IH]; [reflexivity|]. cbn. rewrite existsb_app, IH. cbn. rewrite orb_false_r. apply orb_comm.
Qed.

Lemma spec_returns {E A} (r : res E A) (P : A -> Prop) (Q : E -> Prop) :
  match r with Ok a => P a | Err e => Q e | _ => False end -> r <> Panic /\ r <> OutOfFuel.
Proof. destruct r; [split; discriminate ..|contradiction|contradiction]. Qed.

Lemma drop_length n (b : bytes) : (length (drop n b) <= length b)%nat.
Proof. unfold drop. rewrite skipn_length. lia. Qed.
Lemma forallb_impl {A} (p q : A -> bool) l :
  (forall x, p x = true -> q x = true) -> forallb p l = true -> forallb q l = true.
Proof. rewrite !forallb_forall. auto. Qed.
Lemma flat_map_forallb {A B} (p : A -> bool) (f g : A -> list B) l :
  (forall x, p x = true -> f x = g x) -> forallb p l = true -> flat_map f l = flat_map g l.
Proof. rewrite forallb_forall, !flat_map_concat_map. intros H Hl. f_equal. apply map_ext_in. auto. Qed.
