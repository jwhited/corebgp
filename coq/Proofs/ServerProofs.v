(* ServerProofs.v — C20 (validation, registry refinement, lifecycle), C05 (a finished server stays
   finished), C12 (hold-down schedule). *)
From Verif Require Import Base Consts Server ServerSpec.
From Coq Require Import ZifyBool.

Lemma opts_validate_spec o :
  opts_validate o = ((o_holdsec o =? 0) || (3 <=? o_holdsec o)) && ((1 <=? o_port o)%Z && (o_port o <=? 65535)%Z).
Proof.
  unfold opts_validate. rewrite N.leb_antisym, !Z.leb_antisym, negb_andb, negb_involutive, negb_orb, orb_comm.
  reflexivity.
Qed.

Lemma cfg_validate_spec c o :
  cfg_validate c o =
  is_valid (c_remote c) && (negb (is_valid (o_local o)) || akind_eqb (a_kind (o_local o)) (a_kind (c_remote c)))
  && negb (c_las c =? 0) && negb (c_ras c =? 0).
Proof.
  unfold cfg_validate, is_valid, is4, is6.
  destruct (a_kind (c_remote c)), (a_kind (o_local o)), (c_las c =? 0), (c_ras c =? 0); reflexivity.
Qed.

Theorem validate_iff_usable c o : opts_validate o && cfg_validate c o = usable c o.
Proof. rewrite opts_validate_spec, cfg_validate_spec, andb_comm, andb_assoc. reflexivity. Qed.

Lemma addr_eqb_refl a : addr_eqb a a = true.
Proof. unfold addr_eqb. destruct (a_kind a); cbn; rewrite ?N.eqb_refl; reflexivity. Qed.
Lemma addr_eqb_sym a b : addr_eqb a b = addr_eqb b a.
Proof. unfold addr_eqb. destruct (a_kind a), (a_kind b); cbn; rewrite ?(N.eqb_sym (a_id a)); reflexivity. Qed.
Lemma addr_eqb_valid_eq a b : is_valid a = true -> addr_eqb a b = true -> a = b.
Proof.
  unfold addr_eqb, is_valid. destruct a as [ka ia], b as [kb ib]; cbn.
  destruct ka, kb; cbn; try discriminate; intros _ H; apply N.eqb_eq in H; subst; reflexivity.
Qed.
Lemma addr_eqb_cong a b c : addr_eqb a b = true -> addr_eqb a c = addr_eqb b c.
Proof.
  unfold addr_eqb. destruct (a_kind a), (a_kind b), (a_kind c); cbn; try discriminate; auto;
    intros ->%N.eqb_eq; reflexivity.
Qed.

Definition keys_ok (m : list (addr * (pcfg * popts))) : Prop :=
  (forall k v, In (k, v) m -> is_valid k = true /\ k = c_remote (fst v))
  /\ NoDup (map fst m).

Definition inv (s : server) : Prop := keys_ok (s_peers s) /\ lifecycle_ok s.

Lemma lookup_cons a k v m :
  lookup a ((k, v) :: m) = if addr_eqb k a then Some v else lookup a m.
Proof. unfold lookup. cbn [find fst snd]. destruct (addr_eqb k a); reflexivity. Qed.

Lemma lookup_remove a x m :
  lookup x (remove_key a m) = if addr_eqb x a then None else lookup x m.
Proof.
  induction m as [|[k v] m IH]; [destruct (addr_eqb x a); reflexivity|].
  unfold remove_key in *. cbn [filter fst]. rewrite lookup_cons.
  destruct (addr_eqb k x) eqn:Ekx.
  - rewrite (addr_eqb_cong k x a Ekx). destruct (addr_eqb x a); cbn [negb]; [exact IH|].
    rewrite lookup_cons, Ekx. reflexivity.
  - destruct (addr_eqb k a); cbn [negb]; [exact IH|]. rewrite lookup_cons, Ekx. exact IH.
Qed.

Lemma lookup_in m : keys_ok m -> forall a v, lookup a m = Some v <-> In (a, v) m.
Proof.
  induction m as [|[k v0] m IH]; intros [Hk Hnd] a v; [split; [discriminate|contradiction]|].
  cbn [map fst] in Hnd. inversion Hnd as [|? ? Hnin Hnd']; subst.
  specialize (IH (conj (fun k v H => Hk k v (or_intror H)) Hnd') a v).
  rewrite lookup_cons. cbn [In]. destruct (addr_eqb k a) eqn:E.
  - apply addr_eqb_valid_eq in E; [subst k|apply (Hk k v0); left; reflexivity].
    split; [intros [= ->]; left; reflexivity|intros [[= ->]|Hin]; [reflexivity|]].
    destruct Hnin. apply (in_map fst) in Hin. exact Hin.
  - rewrite IH. split; [right; assumption|intros [[= -> _]|H]; [|exact H]].
    rewrite addr_eqb_refl in E. discriminate.
Qed.

Lemma map_fst_remove_key a m : map fst (remove_key a m) = remove_addr a (map fst m).
Proof.
  induction m as [|[k v] m IH]; [reflexivity|]. unfold remove_key, remove_addr in *. cbn [filter map fst].
  destruct (addr_eqb k a); cbn [negb map fst]; rewrite IH; reflexivity.
Qed.

Lemma keys_ok_add m c o :
  keys_ok m -> is_valid (c_remote c) = true -> lookup (c_remote c) m = None -> keys_ok ((c_remote c, (c, o)) :: m).
Proof.
  intros Hm Hv Hl. pose proof (lookup_in m Hm) as Hin. destruct Hm as [Hk Hnd]. split.
  - intros k v [[= <- <-]|H]; [split; [assumption|reflexivity]|apply (Hk k v H)].
  - cbn [map fst]. constructor; [|assumption]. intros H. apply in_map_iff in H as [[k v] [E H]].
    cbn [fst] in E. subst k. apply Hin in H. congruence.
Qed.

Lemma keys_ok_remove a m : keys_ok m -> keys_ok (remove_key a m).
Proof.
  intros [Hk Hnd]. split.
  - intros k v H. apply filter_In in H as [H _]. apply (Hk k v H).
  - rewrite map_fst_remove_key. apply NoDup_filter. assumption.
Qed.

Theorem step_inv s op : inv s -> inv (fst (server_step s op)).
Proof.
  intros H. pose proof H as [Hk Hl]. unfold inv, lifecycle_ok, server_step in Hl |- *.
  destruct op as [c o|a|a| | | |]; try exact H.
  - destruct (opts_validate o); [|exact H]. destruct (cfg_validate c o) eqn:Ec; [|exact H].
    destruct (lookup (c_remote c) (s_peers s)) eqn:El; [exact H|].
    split; cbn [negb fst s_peers s_serving s_running].
    + apply keys_ok_add; try assumption.
      rewrite cfg_validate_spec in Ec. destruct (is_valid (c_remote c)); [reflexivity|discriminate].
    + destruct (s_serving s); [|exact Hl]. intros a. cbn [map fst In s_running s_peers]. rewrite (Hl a). reflexivity.
  - destruct (lookup a (s_peers s)); [|exact H].
    split; cbn [fst s_peers s_serving s_running]; [apply keys_ok_remove; assumption|].
    destruct (s_serving s); [|rewrite Hl; reflexivity].
    rewrite map_fst_remove_key. intros x. unfold remove_addr. rewrite !filter_In, (Hl x). reflexivity.
  - destruct (s_closed s); [exact H|]. destruct (s_serving s); [exact H|].
    split; [assumption|]. intros a. reflexivity.
  - destruct (s_serving s); (split; [assumption|]); [reflexivity|exact Hl].
  - destruct (s_serving s); [|exact H]. split; [assumption|reflexivity].
Qed.

Theorem step_refines s op :
  inv s ->
  let (s', out) := server_step s op in
  spec_step (abs s) (s_serving s) (s_closed s) op out (abs s') (s_serving s') (s_closed s').
Proof.
  intros [Hk Hl]. unfold server_step, spec_step.
  destruct op as [c o|a|a| | | |].
  - rewrite <- validate_iff_usable.
    destruct (opts_validate o); [|repeat split; reflexivity].
    destruct (cfg_validate c o); [|repeat split; reflexivity]. cbn [negb andb].
    unfold abs at 1. destruct (lookup (c_remote c) (s_peers s)) as [[c' o']|]; repeat split; try reflexivity.
    intros a. unfold abs, aupd. cbn [s_peers]. rewrite lookup_cons, (addr_eqb_sym a).
    destruct (addr_eqb (c_remote c) a); reflexivity.
  - unfold abs at 1. destruct (lookup a (s_peers s)) as [[c' o']|]; repeat split; try reflexivity.
    intros x. unfold abs, aupd. cbn [s_peers]. rewrite lookup_remove. destruct (addr_eqb x a); reflexivity.
  - repeat split; reflexivity.
  - split; [|repeat split; reflexivity].
    intros c. rewrite in_map_iff. unfold abs. split.
    + intros [[k [c' o']] [<- Hin]]. exists k. apply (lookup_in _ Hk) in Hin. rewrite Hin. reflexivity.
    + intros [a Ha]. destruct (lookup a (s_peers s)) as [[c' o']|] eqn:El; [|discriminate].
      injection Ha as ->. apply (lookup_in _ Hk) in El. exists (a, (c, o')). split; [reflexivity|assumption].
  - destruct (s_closed s) eqn:Ec, (s_serving s) eqn:Es; cbn; rewrite ?Ec, ?Es; repeat split; auto.
  - destruct (s_serving s); repeat split; reflexivity.
  - destruct (s_serving s) eqn:Es; cbn; rewrite ?Es, ?orb_true_r, ?orb_false_r; repeat split; reflexivity.
Qed.

Fixpoint run_states (s : server) (ops : list sop) : list server :=
  match ops with [] => [s] | op :: r => s :: run_states (fst (server_step s op)) r end.

Lemma run_states_Forall (P : server -> Prop) :
  (forall s op, P s -> P (fst (server_step s op))) -> forall ops s, P s -> Forall P (run_states s ops).
Proof.
  intros Hstep. induction ops as [|op r IH]; intros s H; cbn [run_states]; constructor; auto.
Qed.

Definition A := c_errorAmnesiaTime.

Lemma damp_step_fresh d now :
  (d_last d = None /\ d_delay d = 0) \/ (exists t, d_last d = Some t /\ A <= now - t) ->
  d_delay (damp_step d now) = sec 60.
Proof.
  unfold damp_step, A, c_errorDelayMinTime, sec. intros [[-> ->]|[t [-> H]]]; cbn [d_delay].
  - reflexivity.
  - destruct (c_errorAmnesiaTime <=? now - t) eqn:E; [reflexivity|lia].
Qed.

Lemma damp_step_streak d now t :
  d_last d = Some t -> now - t < A -> 0 < d_delay d ->
  d_delay (damp_step d now) = N.min (2 * d_delay d) (sec 300).
Proof.
  unfold damp_step, A, c_errorDelayMaxTime, sec. intros -> H Hp. cbn [d_delay].
  destruct (c_errorAmnesiaTime <=? now - t) eqn:E; [lia|].
  destruct (0 <? d_delay d) eqn:E2; [reflexivity|lia].
Qed.

(* a streak: each error less than the amnesia time after the one before *)
Fixpoint streak_from (t : N) (times : list N) : Prop :=
  match times with [] => True | t' :: r => t <= t' /\ t' - t < A /\ streak_from t' r end.

(* if the error at t0 gets the k-th delay of the schedule, the errors of the streak after it get the following ones *)
Lemma streak_delays : forall i times d t0 k dl,
  d_delay (damp_step d t0) = spec_streak_delay k -> streak_from t0 times ->
  nth_error (damp_run d (t0 :: times)) i = Some dl -> dl = spec_streak_delay (k + i).
Proof.
  induction i as [|i IH]; intros times d t0 k dl Hd Hs Hn; cbn [damp_run nth_error] in Hn.
  - injection Hn as <-. rewrite Nat.add_0_r. exact Hd.
  - destruct times as [|t1 r]; [destruct i; discriminate|]. destruct Hs as (_ & Hgap & Hs).
    rewrite <- Nat.add_succ_comm. apply (IH r (damp_step d t0) t1); [|exact Hs|exact Hn].
    rewrite (damp_step_streak (damp_step d t0) t1 t0 eq_refl Hgap); rewrite Hd; unfold spec_streak_delay, sec.
    + rewrite Nat2N.inj_succ, N.pow_succ_r'. lia.
    + pose proof (N.pow_nonzero 2 (N.of_nat k)). lia.
Qed.

Example schedule_values :
  map spec_streak_delay [0; 1; 2; 3; 4]%nat = [sec 60; sec 120; sec 240; sec 300; sec 300].
Proof. vm_compute. reflexivity. Qed.

Theorem serve_while_serving s :
  s_serving s = true -> s_closed s = false -> server_step s OServe = (s, SServeBusy).
Proof. intros Hs Hc. unfold server_step. rewrite Hc, Hs. reflexivity. Qed.

(* once Serve has returned (Close, or a failing listener) nothing restarts the server: whatever operations follow,
   it never serves again and no peer runs *)
Theorem finished_server_never_serves ops : forall s,
  inv s -> s_closed s = true -> s_serving s = false ->
  Forall (fun st => s_serving st = false /\ s_running st = []) (run_states s ops).
Proof.
  intros s Hi Hc Hs.
  apply (Forall_impl _ (P := fun st => inv st /\ s_closed st = true /\ s_serving st = false)).
  - intros st ([_ Hl] & _ & Hs'). unfold lifecycle_ok in Hl. rewrite Hs' in Hl. auto.
  - apply run_states_Forall; [|auto]. intros st op (Hi' & Hc' & Hs').
    split; [apply step_inv; exact Hi'|].
    (* the specification says what each operation does to the two lifecycle flags *)
    pose proof (step_refines st op Hi') as H. destruct (server_step st op) as [s' out]. unfold spec_step in H.
    rewrite Hc', Hs' in H. destruct op, out; try contradiction; cbn [orb negb] in H; tauto.
Qed.
