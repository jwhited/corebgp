(* TimedProofs.v — C06 over timed runs of any length: the hold timer's deadline is always the last
   accepted traffic + the negotiated hold time, so expiry is never early; the keep-alive timer is always
   armed no later than a third of the hold time after the last KEEPALIVE; with hold time 0 no timer is
   armed, so the session never expires for silence and no periodic KEEPALIVE is sent. *)
From Verif Require Import Base Packet Conn Timed BaseLemmas ConnProofs.

Definition tinv (ts : tstate) : Prop :=
  ts_last_ka ts <= ts_now ts /\
  let c := ts_conn ts in
  match c_phase c with
  | POpenSent => ts_ka ts = None
  | PDone => True
  | _ =>
      if c_holdns c =? 0 then ts_hold ts = None /\ ts_ka ts = None
      else ts_hold ts = Some (ts_last_rx ts + c_holdns c)
           /\ exists dl, ts_ka ts = Some dl /\ dl <= ts_last_ka ts + c_holdns c / 3
  end.

Lemma tinv_init t0 : tinv (tinit t0).
Proof. split; [cbn; lia|reflexivity]. Qed.

Lemma keepalive_is_ka : is_ka_write (AWrite keepalive_encode) = true.
Proof. apply beqb_refl. Qed.

Lemma apply_actions_lk now : forall acts h k lk,
  snd (apply_actions now h k lk acts) = if existsb is_ka_write acts then now else lk.
Proof.
  induction acts as [|a r IH]; intros h k lk; cbn [apply_actions existsb snd]; [reflexivity|].
  destruct a; cbn [is_ka_write orb]; try apply IH.
  rewrite IH. destruct (beqb b keepalive_encode); cbn [orb]; [|reflexivity].
  destruct (existsb is_ka_write r); reflexivity.
Qed.

Lemma tstep_facts cf pl ts d i ts' acts :
  tstep cf pl ts d i = Some (ts', acts) ->
  ts_now ts' = ts_now ts + d
  /\ ts_last_ka ts' = if existsb is_ka_write acts then ts_now ts + d else ts_last_ka ts.
Proof.
  unfold tstep. destruct (negb _); [discriminate|].
  destruct (conn_step cf pl (ts_conn ts) i) as [c' a'].
  pose proof (apply_actions_lk (ts_now ts + d) a'
                (match i with IHold => None | _ => ts_hold ts end)
                (match i with IKA => None | _ => ts_ka ts end) (ts_last_ka ts)) as Hk.
  destruct (apply_actions _ _ _ _ a') as [[h k] lk]. cbn [snd] in Hk.
  intros H. injection H as <- <-. cbn [ts_now ts_last_ka]. split; [reflexivity|exact Hk].
Qed.

(* the plugin's writes inside OnEstablished leave the deadlines alone *)
Lemma apply_actions_writes now (l : list bytes) : forall h k lk,
  fst (apply_actions now h k lk (map (fun b => AWrite (update_frame b)) l)) = (h, k).
Proof. induction l; intros h k lk; cbn [map apply_actions]; [reflexivity|apply IHl]. Qed.

Lemma apply_actions_app now a b h k lk :
  apply_actions now h k lk (a ++ b) =
  let '(h1, k1, lk1) := apply_actions now h k lk a in apply_actions now h1 k1 lk1 b.
Proof.
  revert h k lk. induction a as [|x a IH]; intros h k lk; cbn [app apply_actions]; [reflexivity|].
  destruct x; apply IH.
Qed.

(* what tinv says of the timers while the session is up *)
Definition timers_ok (ht : N) (hold ka : option N) (lrx lka : N) : Prop :=
  if ht =? 0 then hold = None /\ ka = None
  else hold = Some (lrx + ht) /\ exists dl, ka = Some dl /\ dl <= lka + ht / 3.

Lemma tinv_up ts :
  tinv ts -> up (c_phase (ts_conn ts)) = true ->
  timers_ok (c_holdns (ts_conn ts)) (ts_hold ts) (ts_ka ts) (ts_last_rx ts) (ts_last_ka ts).
Proof. intros [_ H]. cbv zeta in H. destruct (c_phase (ts_conn ts)); try discriminate; intros _; exact H. Qed.

Lemma apply_restart now hold ka lk ht :
  apply_actions now hold ka lk (restart_hold ht) = (if ht =? 0 then hold else Some (now + ht), ka, lk).
Proof. unfold restart_hold. destruct (ht =? 0); reflexivity. Qed.

Lemma timers_restart ht hold ka lrx lka now :
  timers_ok ht hold ka lrx lka -> timers_ok ht (if ht =? 0 then hold else Some (now + ht)) ka now lka.
Proof. unfold timers_ok. destruct (ht =? 0); [auto|]. intros [_ Hk]. split; [reflexivity|exact Hk]. Qed.

Lemma timers_rearm ht hold ka lrx lka now :
  ht <> 0 -> timers_ok ht hold ka lrx lka -> timers_ok ht hold (Some (now + ht / 3)) lrx now.
Proof. unfold timers_ok. intros ->%N.eqb_neq [Hh _]. split; [exact Hh|]. eexists. split; [reflexivity|lia]. Qed.

Theorem tstep_inv cf pl ts d i ts' acts :
  tinv ts -> tstep cf pl ts d i = Some (ts', acts) -> tinv ts'.
Proof.
  intros [Hlk Hi] Hs.
  assert (Hlk' : ts_last_ka ts <= ts_last_ka ts' <= ts_now ts').
  { destruct (tstep_facts _ _ _ _ _ _ _ Hs) as [-> ->]. destruct (existsb _ _); lia. }
  split; [apply Hlk'|]. cbv zeta in *. revert Hs Hlk'. destruct ts as [c now hold ka lrx lka]. unfold tstep.
  cbn [ts_conn ts_now ts_hold ts_ka ts_last_rx ts_last_ka] in *.
  destruct (negb _) eqn:En; [discriminate|]. apply negb_false_iff in En.
  (* by the shape of the connection's step; tinv computes once the phase is known *)
  destruct (conn_step_shape cf pl c i)
    as [st i Hq|ph h k i cb k' e0 e _ _ _|ph h k _|h k o|ht k|ht k|ht k b _|ht k|ht k|ph ht k Hp Hh];
    cbn [c_phase c_holdns] in *.
  (* closed, stopped: tinv asks nothing of a finished connection *)
  2,3: destruct (apply_actions _ _ _ _ _) as [[hh kk] lk']; intros [= <- <-] _; exact I.
  (* KEEPALIVE in OpenConfirm, KEEPALIVE and UPDATE in Established: the hold timer is restarted *)
  3-5: cbn [apply_actions is_ka_write]; rewrite ?apply_actions_app, apply_restart; intros [= <- <-] _;
    exact (timers_restart ht _ _ _ _ _ Hi).
  - (* nothing happens: the input is not accepted traffic, and had it been the expiry of a timer, the timer would
       have been armed (En), which Hq and tinv exclude *)
    cbn [apply_actions]. intros [= <- <-] _. change selecting with live in En.
    destruct i as [e| | | |]; cbn [ts_conn ts_hold ts_ka ts_last_rx ts_last_ka].
    1,4: destruct (c_phase st); try destruct (Hq eq_refl); exact Hi.
    + apply andb_true_iff in En as [L En]. destruct (Hq L) as [Hn Hz]. rewrite Hz in Hi.
      destruct (c_phase st); try discriminate L; try congruence; destruct Hi as [-> _]; discriminate En.
    + apply andb_true_iff in En as [L En]. assert (ka = None) as ->; [|discriminate En].
      destruct (Hq L) as [Hp|Hz]; [rewrite Hp in Hi; exact Hi|]. rewrite Hz in Hi.
      destruct (c_phase st); try discriminate L; apply Hi.
    + destruct (c_phase st); exact Hi.
  - (* OPEN accepted: both timers are started, or the hold timer stopped *)
    cbn [apply_actions app]. rewrite keepalive_is_ka.
    destruct (negotiated cf o =? 0) eqn:Z; cbn [apply_actions app is_ka_write]; intros [= <- <-] _; cbn; rewrite Z; [auto|].
    split; [reflexivity|]. eexists. split; [reflexivity|lia].
  - (* the approval to OpenConfirm *)
    cbn [apply_actions]. intros [= <- <-] _. exact Hi.
  - (* Established: OnEstablished and the plugin's writes touch no timer *)
    cbn [apply_actions is_ka_write]. pose proof (apply_actions_writes (now + d) (pl_est_writes pl) hold ka lka) as Hf.
    destruct (apply_actions _ _ _ _ _) as [[h' k'] lk']. cbn [fst] in Hf. injection Hf as -> ->.
    intros [= <- <-] Hlk'. cbn in *.
    destruct (ht =? 0); [exact Hi|]. destruct Hi as [Hx (dl & Hk & Hd)]. split; [exact Hx|]. exists dl. split; [exact Hk|lia].
  - (* the keep-alive timer fires in OpenConfirm or Established *)
    cbn [apply_actions]. rewrite keepalive_is_ka. intros [= <- <-] _.
    destruct Hp as [-> | ->]; exact (timers_rearm ht _ _ _ _ _ Hh Hi).
Qed.

Theorem trun_inv cf pl : forall ins ts ts', tinv ts -> trun cf pl ts ins = Some ts' -> tinv ts'.
Proof.
  induction ins as [|[d i] r IH]; intros ts ts' Hi Hr; cbn [trun] in Hr.
  - injection Hr as <-. exact Hi.
  - destruct (tstep cf pl ts d i) as [[ts1 a]|] eqn:Es; [|discriminate].
    eapply IH; [eapply tstep_inv; eassumption|exact Hr].
Qed.

Definition reachable_t cf pl (ts : tstate) : Prop := exists t0 ins, trun cf pl (tinit t0) ins = Some ts.

Lemma reachable_tinv cf pl ts : reachable_t cf pl ts -> tinv ts.
Proof. intros (t0 & ins & H). eapply trun_inv; [apply tinv_init|exact H]. Qed.

(* while the session is up with a hold time H that is not zero both timers run: the hold timer until H after the last
   accepted OPEN / KEEPALIVE / UPDATE, the keep-alive timer until no later than H/3 after the last KEEPALIVE written
   (C06: so if an expired timer is served within L, never more than H/3 + L passes without a KEEPALIVE) *)
Lemma timers_running ts :
  tinv ts -> up (c_phase (ts_conn ts)) = true -> c_holdns (ts_conn ts) <> 0 ->
  ts_hold ts = Some (ts_last_rx ts + c_holdns (ts_conn ts))
  /\ exists dl, ts_ka ts = Some dl /\ dl <= ts_last_ka ts + c_holdns (ts_conn ts) / 3.
Proof.
  intros Hi Hup Hh. apply tinv_up in Hi; [|exact Hup]. unfold timers_ok in Hi.
  destruct (N.eqb_spec (c_holdns (ts_conn ts)) 0); [contradiction|exact Hi].
Qed.

Theorem no_early_expiry cf pl ts d r :
  tinv ts -> up (c_phase (ts_conn ts)) = true -> c_holdns (ts_conn ts) <> 0 ->
  tstep cf pl ts d IHold = Some r ->
  ts_last_rx ts + c_holdns (ts_conn ts) <= ts_now ts + d.
Proof.
  intros Hi Hup Hh Hs. destruct (timers_running ts Hi Hup Hh) as [Hx _].
  unfold tstep in Hs. destruct (negb _) eqn:En; [discriminate|]. apply negb_false_iff, andb_true_iff in En as [_ En].
  rewrite Hx in En. cbn [due] in En. lia.
Qed.

(* d after ts_now the keep-alive timer, if armed, has been due for at most L *)
Definition served_within (L : N) (ts : tstate) (d : N) : Prop :=
  match ts_ka ts with Some dl => ts_now ts + d <= dl + L | None => True end.

Lemma cadence ts d L B :
  (exists dl, ts_ka ts = Some dl /\ dl <= B) -> served_within L ts d -> ts_now ts + d <= B + L.
Proof. intros (dl & Hk & Hd) Hs. unfold served_within in Hs. rewrite Hk in Hs. lia. Qed.

Theorem zero_hold_never_fires cf pl ts d i :
  tinv ts -> up (c_phase (ts_conn ts)) = true -> c_holdns (ts_conn ts) = 0 ->
  (i = IHold \/ i = IKA) -> tstep cf pl ts d i = None.
Proof.
  intros Hv Hup Hh Hi. apply tinv_up in Hv; [|exact Hup]. rewrite Hh in Hv.
  destruct Hv as [Hth Htk]. unfold tstep. destruct Hi as [-> | ->]; rewrite ?Hth, ?Htk; cbn [due];
    rewrite andb_false_r; reflexivity.
Qed.
