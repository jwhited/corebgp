(* AttrProofs.v — C18: the typed path-attribute decoders against the RFC table. *)
From Verif Require Import Base Consts Packet Errors Update PacketSpec UpdateSpec UpdateOracles
                          BaseLemmas PacketProofs PrefixProofs.

Lemma testbit_div p k : negb ((p / 2 ^ k) mod 2 =? 0) = N.testbit p k.
Proof. rewrite <- N.testbit_spec'. destruct (N.testbit p k); reflexivity. Qed.

Lemma u32_exact a b0 c d r :
  wf_bytes (a :: b0 :: c :: d :: r) = true ->
  u32_ok (get32 a b0 c d) = true /\ be32 (get32 a b0 c d) = [a; b0; c; d].
Proof.
  intros Hw. apply wf4 in Hw as (Ha & Hb0 & Hc & Hd & _).
  pose proof (get32_lt a b0 c d Ha Hb0 Hc Hd). unfold u32_ok. split; [lia|apply be32_get32; assumption].
Qed.

Lemma len_mult (b : bytes) k : (0 < k)%nat -> blen b mod N.of_nat k = 0 -> exists n, length b = (k * n)%nat.
Proof.
  intros Hk H. apply N.mod_divides in H as [c Hc]; [|lia]. exists (N.to_nat c). unfold blen in Hc. lia.
Qed.

(* u32s, addrs4 and large_set cut the value into k-octet chunks and convert each *)
Lemma chunked_spec {T} (k : nat) (f : bytes -> list T) (enc : T -> bytes) (ok : T -> bool) :
  f [] = [] ->
  (forall c r, length c = k -> wf_bytes c = true ->
     exists x, f (c ++ r) = x :: f r /\ ok x = true /\ enc x = c) ->
  forall b, (0 < k)%nat -> blen b mod N.of_nat k = 0 -> wf_bytes b = true ->
  forallb ok (f b) = true /\ flat_map enc (f b) = b.
Proof.
  intros H0 Hs b Hk Hm Hw. destruct (len_mult b k Hk Hm) as [n Hn]. clear Hm. revert b Hn Hw.
  induction n as [|n IH]; intros b Hn Hw.
  - replace b with (@nil N) by (destruct b; [reflexivity|cbn in Hn; lia]). rewrite H0. split; reflexivity.
  - rewrite <- (firstn_skipn k b) in Hw |- *. rewrite wf_bytes_app in Hw. apply andb_true_iff in Hw as [Hc Hr].
    destruct (Hs (firstn k b) (skipn k b)) as (x & -> & Hok & Hx); [rewrite firstn_length; lia|assumption|].
    destruct (IH (skipn k b)) as [I1 I2]; [rewrite skipn_length; lia|assumption|].
    cbn [flat_map forallb]. rewrite I1, I2, Hx, Hok. split; reflexivity.
Qed.

Lemma u32s_spec b :
  blen b mod 4 = 0 -> wf_bytes b = true -> forallb u32_ok (u32s b) = true /\ flat_map be32 (u32s b) = b.
Proof.
  apply (chunked_spec 4 u32s be32 u32_ok eq_refl); [|lia].
  intros c r Hc Hw. destruct c as [|a [|b0 [|c0 [|d [|]]]]]; try discriminate Hc.
  eexists. split; [reflexivity|exact (u32_exact _ _ _ _ _ Hw)].
Qed.

Lemma addrs4_spec b :
  blen b mod 4 = 0 -> wf_bytes b = true ->
  forallb (fun a => blen a =? 4) (addrs4 b) = true /\ concat (addrs4 b) = b.
Proof.
  apply (chunked_spec 4 addrs4 (fun a => a) (fun a => blen a =? 4) eq_refl); [|lia].
  intros c r Hc Hw. destruct c as [|a [|b0 [|c0 [|d [|]]]]]; try discriminate Hc.
  eexists. split; [reflexivity|split; reflexivity].
Qed.

Lemma large_set_spec b :
  blen b mod 12 = 0 -> wf_bytes b = true ->
  forallb (fun t => u32_ok (fst (fst t)) && u32_ok (snd (fst t)) && u32_ok (snd t)) (large_set b) = true
  /\ flat_map (fun t => be32 (fst (fst t)) ++ be32 (snd (fst t)) ++ be32 (snd t)) (large_set b) = b.
Proof.
  apply (chunked_spec 12 large_set _ _ eq_refl); [|lia].
  intros c r Hc Hw.
  destruct c as [|a1 [|a2 [|a3 [|a4 [|b1 [|b2 [|b3 [|b4 [|c1 [|c2 [|c3 [|c4 [|]]]]]]]]]]]]]; try discriminate Hc.
  destruct (u32_exact _ _ _ _ _ Hw) as [Ha Ea]. apply wf4 in Hw as (_ & _ & _ & _ & Hw).
  destruct (u32_exact _ _ _ _ _ Hw) as [Hb Eb]. apply wf4 in Hw as (_ & _ & _ & _ & Hw).
  destruct (u32_exact _ _ _ _ _ Hw) as [Hc' Ec].
  eexists. split; [reflexivity|]. cbn [fst snd]. rewrite Ha, Hb, Hc', Ea, Eb, Ec. split; reflexivity.
Qed.

Lemma flag_failure_ok code flags b want :
  rfc_flags code = Some want -> flags_match flags want = false ->
  spec_attr_failure code flags b (ETaw code (Some (mkNotif 3 4 (spec_attr_tlv code b)))) = true.
Proof.
  intros Hr Hf. unfold spec_attr_failure. rewrite Hr, Hf. cbn [negb].
  rewrite N.eqb_refl, beqb_refl. reflexivity.
Qed.

(* the shape of a length failure, for the attributes with no subcode of their own *)
Definition len_err (code : N) (b : bytes) : err :=
  match rfc_approach code with AppTaw => taw_len code b | AppDiscard => discard_len code b end.

Lemma len_failure code flags b want :
  rfc_flags code = Some want -> flags_match flags want = true -> (code =? 1) || (code =? 2) = false ->
  blen b < 65536 -> spec_attr_failure code flags b (len_err code b) = true.
Proof.
  intros Hr Hf Hc Hb. unfold spec_attr_failure, len_err, taw_len, discard_len, attr_len_err, upd_err.
  rewrite Hr, Hf.
  destruct (rfc_approach code); cbn [negb n_code n_sub n_data];
    rewrite N.eqb_refl, attr_err_data_spec, beqb_refl by assumption;
    destruct code as [|[p|[p|p|]|]]; try discriminate Hc; reflexivity.
Qed.

Definition attr_sound (code flags : N) (b : bytes) : Prop :=
  match rfc_flags code with
  | None => True
  | Some want =>
    match attr_decode code flags b with
    | Ok v => flags_match flags want && rfc_value_ok code b = true /\ value_exact code b v = true
    | Err e => flags_match flags want && rfc_value_ok code b = false /\ spec_attr_failure code flags b e = true
    | _ => False
    end
  end.

(* every typed decoder checks the flags first and then runs some body.  The equation is a hypothesis that
   callers discharge by eq_refl at a concrete code, so that no script unfolds attr_decode *)
Lemma attr_decode_flags code flags b o t body :
  blen b < 65536 ->
  attr_decode code flags b = match flags_validate flags code b o t with Some e => Err e | None => body end ->
  attr_decode code flags b =
  if flags_match flags (o, t) then body else Err (ETaw code (Some (mkNotif 3 4 (spec_attr_tlv code b)))).
Proof.
  intros Hb ->. rewrite flags_validate_spec by assumption. unfold spec_flag_err.
  destruct (flags_match flags (o, t)); reflexivity.
Qed.

(* with the RFC's flags, what is left to show is that the body decides the RFC's value rule *)
Lemma attr_sound_intro code flags b want body :
  rfc_flags code = Some want -> blen b < 65536 ->
  attr_decode code flags b =
    match flags_validate flags code b (fst want) (snd want) with Some e => Err e | None => body end ->
  (flags_match flags want = true ->
   match body with
   | Ok v => rfc_value_ok code b = true /\ value_exact code b v = true
   | Err e => rfc_value_ok code b = false /\ spec_attr_failure code flags b e = true
   | _ => False
   end) ->
  attr_sound code flags b.
Proof.
  intros Hr Hb Hd H. unfold attr_sound. rewrite Hr, (attr_decode_flags _ _ _ _ _ _ Hb Hd), <- surjective_pairing.
  destruct (flags_match flags want) eqn:Ef; cbn [andb]; [exact (H eq_refl)|].
  split; [reflexivity|exact (flag_failure_ok _ _ _ _ Hr Ef)].
Qed.

(* all but ORIGIN and AS_PATH refuse a value only for its length *)
Lemma attr_sound_len code flags b want body :
  rfc_flags code = Some want -> (code =? 1) || (code =? 2) = false -> blen b < 65536 ->
  attr_decode code flags b =
    match flags_validate flags code b (fst want) (snd want) with Some e => Err e | None => body end ->
  match body with
  | Ok v => rfc_value_ok code b = true /\ value_exact code b v = true
  | Err e => rfc_value_ok code b = false /\ e = len_err code b
  | _ => False
  end ->
  attr_sound code flags b.
Proof.
  intros Hr Hc Hb Hd H. apply (attr_sound_intro _ _ _ _ _ Hr Hb Hd). intros Ef.
  destruct body; try exact H. destruct H as [Hv ->]. split; [exact Hv|exact (len_failure _ _ _ _ Hr Ef Hc Hb)].
Qed.

Theorem origin_sound flags b : blen b < 65536 -> attr_sound 1 flags b.
Proof.
  intros Hb. apply (attr_sound_intro 1 flags b _ _ eq_refl Hb eq_refl). intros Ef.
  assert (Hfail : spec_attr_failure 1 flags b
                    (ETaw 1 (Some (upd_err (if blen b =? 1 then 6 else 5) (attr_err_data 1 b)))) = true).
  { unfold spec_attr_failure, upd_err. cbn [rfc_flags]. rewrite Ef, attr_err_data_spec by assumption.
    cbn [negb rfc_approach n_code n_sub n_data]. rewrite beqb_refl. destruct (blen b =? 1); reflexivity. }
  cbn [rfc_value_ok]. destruct b as [|o [|x r]].
  - split; [reflexivity|exact Hfail].
  - destruct (2 <? o) eqn:E; (split; [lia|]); [exact Hfail|exact (beqb_refl [o])].
  - replace (blen (o :: x :: r) =? 1) with false in Hfail by (rewrite !blen_cons; lia).
    split; [reflexivity|exact Hfail].
Qed.

(* value_exact for a value whose re-encoding is compared with the input *)
Lemma value_exact_intro code b v ok :
  value_exact code b v = ok && beqb (spec_attrval_enc v) b -> ok = true /\ spec_attrval_enc v = b ->
  value_exact code b v = true.
Proof. intros -> [-> ->]. apply beqb_refl. Qed.

(* fixed-length-4 address attributes: NEXT_HOP (3), ORIGINATOR_ID (9) *)
Lemma addr4_sound code flags b :
  (code = 3 \/ code = 9) -> blen b < 65536 -> attr_sound code flags b.
Proof.
  intros [-> | ->] Hb;
    (eapply attr_sound_len; [reflexivity|reflexivity|assumption|reflexivity|]);
    cbn [rfc_value_ok]; (destruct (blen b =? 4); [split; [reflexivity|apply beqb_refl]|split; reflexivity]).
Qed.

(* 4-octet integers: MED (4), LOCAL_PREF (5) *)
Lemma u32attr_sound code flags b :
  (code = 4 \/ code = 5) -> wf_bytes b = true -> blen b < 65536 -> attr_sound code flags b.
Proof.
  intros [-> | ->] Hw Hb;
    (eapply attr_sound_len; [reflexivity|reflexivity|assumption|reflexivity|]);
    cbn [rfc_value_ok]; destruct b as [|a [|b0 [|c [|d [|e r]]]]];
    try (split; [unfold blen; cbn [length]; lia|reflexivity]);
    (* what is left is a value of exactly four octets *)
    (split; [reflexivity|eapply value_exact_intro; [reflexivity|exact (u32_exact _ _ _ _ _ Hw)]]).
Qed.

Theorem aggregator_sound flags b : wf_bytes b = true -> blen b < 65536 -> attr_sound 7 flags b.
Proof.
  intros Hw Hb. apply (attr_sound_len 7 flags b _ _ eq_refl eq_refl Hb eq_refl).
  cbn [rfc_value_ok]. destruct b as [|a [|b0 [|c [|d [|i3 [|i2 [|i1 [|i0 [|e r]]]]]]]]]; try (split; reflexivity).
  - destruct (u32_exact _ _ _ _ _ Hw) as [Hok Henc]. split; [reflexivity|].
    eapply value_exact_intro; [reflexivity|]. cbn [spec_attrval_enc]. rewrite Hok, Henc. split; reflexivity.
  - split; [rewrite !blen_cons; lia|reflexivity].
Qed.

(* values cut into chunks of one size: COMMUNITIES (8), CLUSTER_LIST (10), LARGE_COMMUNITIES (32) *)
Lemma chunked_attr_sound code flags b :
  (code = 8 \/ code = 10 \/ code = 32) -> wf_bytes b = true -> blen b < 65536 -> attr_sound code flags b.
Proof.
  intros [-> | [-> | ->]] Hw Hb;
    (eapply attr_sound_len; [reflexivity|reflexivity|assumption|reflexivity|]);
    cbn [rfc_value_ok]; (destruct (_ || _) eqn:E; (split; [lia|]); [reflexivity|]);
    (eapply value_exact_intro; [reflexivity|]);
    [apply u32s_spec|apply addrs4_spec|apply large_set_spec]; (lia || assumption).
Qed.

(* every typed decoder but AS_PATH and ATOMIC_AGGREGATE (findings D10, D9) is sound *)
Theorem attr_decode_sound code flags b :
  code <> 2 -> code <> 6 -> wf_bytes b = true -> blen b < 65536 -> attr_sound code flags b.
Proof.
  intros H2 H6 Hw Hb. destruct code as [|p]; [exact I|].
  do 6 (try destruct p as [p|p|]; try exact I); try congruence;
    auto using origin_sound, addr4_sound, u32attr_sound, aggregator_sound, chunked_attr_sound.
Qed.

Lemma attr_decode_other code flags b : rfc_flags code = None -> attr_decode code flags b = Err EOther.
Proof.
  intros H. destruct code as [|p]; [reflexivity|].
  do 6 (try destruct p as [p|p|]; try reflexivity); discriminate H.
Qed.

(* ATOMIC_AGGREGATE: the code validates the flags as Optional+Transitive (finding D9) *)
Theorem atomic_aggregate_partial flags b :
  blen b < 65536 ->
  match attr_decode 6 flags b with
  | Ok v => flags_match flags (true, true) && (blen b =? 0) = true /\ v = VAtomic
  | Err e => flags_match flags (true, true) && (blen b =? 0) = false
             /\ (flags_match flags (true, true) = false -> e = ETaw 6 (Some (mkNotif 3 4 (spec_attr_tlv 6 b))))
             /\ (flags_match flags (true, true) = true -> e = EDiscard 6 (Some (mkNotif 3 5 (spec_attr_tlv 6 b))))
  | _ => False
  end.
Proof.
  intros Hb. rewrite (attr_decode_flags 6 flags b true true _ Hb eq_refl).
  destruct (flags_match flags (true, true)) eqn:Ef; cbn [andb].
  - destruct (blen b =? 0) eqn:E; cbn [negb].
    + split; reflexivity.
    + split; [reflexivity|]. split; [discriminate|]. intros _.
      unfold discard_len, attr_len_err, upd_err. rewrite attr_err_data_spec by assumption. reflexivity.
  - split; [reflexivity|]. split; [reflexivity|discriminate].
Qed.

(* what an accumulator of aspath_loop holds at the end: the last segment of type t, or what it started with *)
Fixpoint last_of (t : N) (segs : list (N * list N)) (dflt : list N) : list N :=
  match segs with
  | [] => dflt
  | (t', l) :: r => last_of t r (if t' =? t then l else dflt)
  end.

Lemma spec_segments_blen : forall f b segs,
  spec_segments f b = Some segs -> blen b mod 2 = 0 /\ (blen b = 0 \/ 6 <= blen b).
Proof.
  induction f as [|f IH]; intros b segs H; [discriminate|]. cbn [spec_segments] in H.
  destruct b as [|t [|c r]]; [split; [reflexivity|left; reflexivity]|discriminate|].
  destruct (((t =? 1) || (t =? 2)) && (1 <=? c) && (c * 4 <=? blen r)) eqn:E; [|discriminate].
  destruct (spec_segments f (drop (c * 4) r)) as [l|] eqn:El; [|discriminate].
  apply IH in El as [El _]. rewrite blen_drop in El. rewrite !blen_cons. lia.
Qed.

Lemma decode_u32_set_take c r :
  1 <= c -> c * 4 <= blen r -> decode_u32_set (take (c * 4) r) = Some (u32s (take (c * 4) r)).
Proof.
  intros Hc Hl. unfold decode_u32_set. rewrite blen_take by assumption.
  destruct ((c * 4 =? 0) || negb ((c * 4) mod 4 =? 0)) eqn:E; [lia|reflexivity].
Qed.

(* one segment, in the terms of spec_segments *)
Lemma aspath_loop_step f t c r set seq :
  aspath_loop (S f) (t :: c :: r) set seq =
  if (blen r <? 4) || negb (blen r mod 2 =? 0)
  then Err (ETaw c_PATH_ATTR_AS_PATH (Some (attr_len_err c_PATH_ATTR_AS_PATH (t :: c :: r))))
  else if ((t =? 1) || (t =? 2)) && (1 <=? c) && (c * 4 <=? blen r)
  then aspath_loop f (drop (c * 4) r) (if t =? 1 then u32s (take (c * 4) r) else set)
                                      (if t =? 2 then u32s (take (c * 4) r) else seq)
  else Err aspath_malformed.
Proof.
  cbn [aspath_loop]. rewrite !blen_cons.
  replace (0 <? 1 + (1 + blen r)) with true by lia.
  replace ((1 + (1 + blen r) <? 6) || negb ((1 + (1 + blen r)) mod 2 =? 0))
    with ((blen r <? 4) || negb (blen r mod 2 =? 0)) by lia.
  destruct (c * 4 =? 0) eqn:Ec; [replace (1 <=? c) with false by lia; rewrite andb_false_r; reflexivity|].
  destruct (blen r <? c * 4) eqn:El; [replace (c * 4 <=? blen r) with false by lia; rewrite andb_false_r; reflexivity|].
  replace (1 <=? c) with true by lia. replace (c * 4 <=? blen r) with true by lia.
  rewrite slice_to_spec, slice_from_spec by lia. cbn [of_opt rbind]. rewrite decode_u32_set_take by lia.
  destruct (t =? 1) eqn:T1, (t =? 2) eqn:T2; try reflexivity; lia.
Qed.

Lemma aspath_loop_spec : forall f b set seq,
  (length b < f)%nat ->
  match spec_segments f b with
  | Some segs => aspath_loop f b set seq = Ok (last_of 1 segs set, last_of 2 segs seq)
  | None => exists e, aspath_loop f b set seq = Err e /\ (e = aspath_malformed \/ exists b', e = taw_len 2 b')
  end.
Proof.
  induction f as [|f IH]; intros b set seq Hf; [lia|].
  destruct b as [|t [|c r]]; [reflexivity|eexists; split; [reflexivity|right; eexists; reflexivity]|].
  rewrite aspath_loop_step. cbn [spec_segments].
  destruct (((t =? 1) || (t =? 2)) && (1 <=? c) && (c * 4 <=? blen r)) eqn:E.
  - pose proof (drop_length (c * 4) r) as Hfd. cbn [length] in Hf.
    specialize (fun set seq => IH (drop (c * 4) r) set seq ltac:(lia)).
    destruct (spec_segments f (drop (c * 4) r)) as [l|] eqn:El.
    + apply spec_segments_blen in El as [El _]. rewrite blen_drop in El.
      replace ((blen r <? 4) || negb (blen r mod 2 =? 0)) with false by lia.
      rewrite IH. reflexivity.
    + destruct ((blen r <? 4) || negb (blen r mod 2 =? 0)); [|apply IH].
      eexists. split; [reflexivity|right; eexists; reflexivity].
  - destruct ((blen r <? 4) || negb (blen r mod 2 =? 0)); eexists; (split; [reflexivity|]);
      [right; eexists; reflexivity|left; reflexivity].
Qed.

(* accepted exactly when the flags are the RFC's and the value is a sequence of
   well-formed segments; the decoded value is the last segment of each type *)
Theorem aspath_decode_spec flags b :
  blen b < 65536 ->
  match attr_decode 2 flags b with
  | Ok v => flags_match flags (false, true) && rfc_value_ok 2 b = true
            /\ exists segs, aspath_segments b = Some segs
                            /\ v = VASPath (last_of 1 segs []) (last_of 2 segs [])
  | Err e => flags_match flags (false, true) && rfc_value_ok 2 b = false
             /\ spec_attr_failure 2 flags b e = true
  | _ => False
  end.
Proof.
  intros Hb. rewrite (attr_decode_flags 2 flags b false true _ Hb eq_refl).
  destruct (flags_match flags (false, true)) eqn:Ef; cbn [andb];
    [|split; [reflexivity|eapply flag_failure_ok; [reflexivity|exact Ef]]].
  assert (Hfail : forall e, e = aspath_malformed \/ (exists b', e = taw_len 2 b') -> spec_attr_failure 2 flags b e = true).
  { intros e [-> | [b' ->]]; unfold spec_attr_failure; cbn [rfc_flags]; rewrite Ef; reflexivity. }
  cbn [rfc_value_ok]. unfold aspath_segments.
  destruct (blen b =? 0) eqn:E0.
  - assert (b = []) by (apply blen_0; lia). subst b. cbn. split; [reflexivity|].
    exists []. split; reflexivity.
  - pose proof (aspath_loop_spec (S (length b)) b [] [] (Nat.lt_succ_diag_r _)) as Hl.
    destruct (spec_segments (S (length b)) b) as [segs|] eqn:Es.
    + pose proof (spec_segments_blen _ _ _ Es) as [Hev H6].
      replace ((blen b <? 6) || negb (blen b mod 2 =? 0)) with false by lia.
      rewrite Hl. split; [reflexivity|]. exists segs. split; reflexivity.
    + destruct ((blen b <? 6) || negb (blen b mod 2 =? 0)).
      * split; [reflexivity|]. apply Hfail. right. eexists. reflexivity.
      * destruct Hl as (e & -> & He). split; [reflexivity|]. apply Hfail, He.
Qed.

(* no AS number is lost when each segment type occurs at most once (C18.c18_as_path_value_partial) *)
Definition count_type (t : N) (segs : list (N * list N)) : nat :=
  length (filter (fun s => fst s =? t) segs).

Lemma last_of_single t : forall segs dflt,
  (count_type t segs <= 1)%nat ->
  last_of t segs dflt = match filter (fun s => fst s =? t) segs with [] => dflt | _ => flat_map snd (filter (fun s => fst s =? t) segs) end.
Proof.
  induction segs as [|[t' l] segs IH]; intros dflt Hc; [reflexivity|].
  unfold count_type in *. cbn [filter fst last_of] in *.
  destruct (t' =? t) eqn:E.
  - cbn [length] in Hc. assert (Hz : length (filter (fun s => fst s =? t) segs) = 0%nat) by lia.
    rewrite IH by lia. destruct (filter (fun s => fst s =? t) segs); [|discriminate].
    cbn. rewrite app_nil_r. reflexivity.
  - apply IH. exact Hc.
Qed.

