(* ListDecode.v — a field that is a concatenation of self-delimiting items, decoded by
   a fuelled loop "while bytes remain, decode one item".  What is needed of the item
   decoder is stated once (exact_item); the list results follow for every such loop. *)
From Verif Require Import Base BaseLemmas.

Section ListDecode.
  Context {E A : Type} (dec : bytes -> res E (A * bytes)) (enc : A -> bytes) (wf : A -> bool).

  Fixpoint items_loop (fuel : nat) (b : bytes) : res E (list A) :=
    match fuel with
    | O => OutOfFuel
    | S f =>
        if 0 <? blen b then
          do ar <- dec b;
          do l <- items_loop f (snd ar);
          Ok (fst ar :: l)
        else Ok []
    end.
  Definition items_decode (b : bytes) : res E (list A) := items_loop (S (length b)) b.

  Lemma items_loop_unique (loop : nat -> bytes -> res E (list A)) :
    (forall b, loop O b = OutOfFuel) ->
    (forall f b, loop (S f) b =
       if 0 <? blen b then do ar <- dec b; do l <- loop f (snd ar); Ok (fst ar :: l) else Ok []) ->
    forall f b, loop f b = items_loop f b.
  Proof.
    intros H0 HS. induction f as [|f IH]; intros b; [apply H0|]. rewrite HS. cbn [items_loop].
    destruct (dec b); cbn [rbind]; [rewrite IH|..]; reflexivity.
  Qed.

  (* dec splits exactly one encoded well-formed item off the front, or fails *)
  Record exact_item : Prop := {
    item_enc : forall a r, wf a = true -> dec (enc a ++ r) = Ok (a, r);
    item_dec : forall b, wf_bytes b = true ->
      match dec b with
      | Ok (a, r) => wf a = true /\ b = enc a ++ r
      | Err _ => True
      | _ => False
      end;
    item_nonempty : forall a, enc a <> []
  }.
  Hypothesis X : exact_item.

  Lemma enc_length a r : (length r < length (enc a ++ r))%nat.
  Proof.
    pose proof (item_nonempty X a). rewrite app_length. destruct (enc a); [contradiction|cbn [length]; lia].
  Qed.

  Lemma items_loop_rt : forall l f,
    forallb wf l = true -> (length (flat_map enc l) < f)%nat ->
    items_loop f (flat_map enc l) = Ok l.
  Proof.
    induction l as [|a l IH]; intros f Hall Hf; (destruct f as [|f]; [lia|]); [reflexivity|].
    cbn [forallb] in Hall. apply andb_true_iff in Hall as [Ha Hall].
    cbn [flat_map items_loop] in *. pose proof (enc_length a (flat_map enc l)) as Hl.
    replace (0 <? blen (enc a ++ flat_map enc l)) with true by (unfold blen; lia).
    rewrite (item_enc X) by assumption. cbn [rbind fst snd]. rewrite IH by (assumption || lia). reflexivity.
  Qed.

  Lemma items_loop_sound : forall f b,
    wf_bytes b = true -> (length b < f)%nat ->
    match items_loop f b with
    | Ok l => forallb wf l = true /\ flat_map enc l = b
    | Err _ => True
    | _ => False
    end.
  Proof.
    induction f as [|f IH]; intros b Hw Hf; [lia|]. cbn [items_loop].
    destruct (0 <? blen b) eqn:E0; [|split; [reflexivity|symmetry; apply blen_0; lia]].
    pose proof (item_dec X b Hw) as Hd.
    destruct (dec b) as [[a r]| | |]; cbn [rbind fst snd]; try exact Hd.
    destruct Hd as [Ha ->]. rewrite wf_bytes_app in Hw. apply andb_true_iff in Hw as [_ Hw].
    pose proof (enc_length a r). specialize (IH r Hw ltac:(lia)).
    destruct (items_loop f r) as [l| | |]; cbn [rbind]; try exact IH.
    destruct IH as [Hall <-]. cbn [forallb flat_map]. rewrite Ha, Hall. split; reflexivity.
  Qed.

  Theorem items_roundtrip l : forallb wf l = true -> items_decode (flat_map enc l) = Ok l.
  Proof. intros H. apply items_loop_rt; [assumption|lia]. Qed.

  Theorem items_inverse b l :
    wf_bytes b = true -> items_decode b = Ok l -> forallb wf l = true /\ flat_map enc l = b.
  Proof.
    intros Hw H. pose proof (items_loop_sound (S (length b)) b Hw (Nat.lt_succ_diag_r _)) as Hs.
    unfold items_decode in H. rewrite H in Hs. exact Hs.
  Qed.

  Theorem items_total b : wf_bytes b = true -> items_decode b <> Panic /\ items_decode b <> OutOfFuel.
  Proof. intros Hw. eapply spec_returns, items_loop_sound; [assumption|lia]. Qed.

  Theorem items_fail_iff b :
    wf_bytes b = true ->
    ((exists e, items_decode b = Err e) <-> forall l, forallb wf l = true -> flat_map enc l <> b).
  Proof.
    intros Hw. split.
    - intros [e H] l Hall <-. rewrite items_roundtrip in H by assumption. discriminate.
    - intros H. destruct (items_total b Hw) as [T1 T2].
      destruct (items_decode b) as [l|e| |] eqn:El; [|exists e; reflexivity|congruence|congruence].
      apply items_inverse in El as [Hall Henc]; [|assumption]. destruct (H l Hall Henc).
  Qed.
End ListDecode.
Arguments items_roundtrip {E A dec enc wf}.
Arguments items_inverse {E A dec enc wf}.
Arguments items_total {E A dec enc wf}.
Arguments items_fail_iff {E A dec enc wf}.
