(* PeerProofs.v — Layer C theorems by explicit finite inductive invariant (Closure.v):
   the reachable-state set of the peer manager || FSM system, up to the monitor bit s_refused,
   which no transition reads, is computed when this file is compiled; that it holds the initial state, that
   every member is good and that it is closed under every label that can fire is checked by the
   kernel (vm_compute of Closure.check_at), and Closure.check_at_sound lifts this to every trace of any
   length. *)
From Coq Require Import List Bool NArith.
Import ListNotations.
From Verif Require Import Closure Peer.

Definition sys_eq_dec : forall a b : sys, {a = b} + {a <> b}.
Proof. repeat decide equality. Defined.
Definition sys_eqb (a b : sys) : bool := if sys_eq_dec a b then true else false.
Lemma sys_eqb_eq a b : sys_eqb a b = true -> a = b.
Proof. unfold sys_eqb. destruct (sys_eq_dec a b); [auto|discriminate]. Qed.
Lemma sys_eqb_refl a : sys_eqb a a = true.
Proof. unfold sys_eqb. destruct (sys_eq_dec a a); congruence. Qed.

(* A numeric key of a state (its components, each weighted by its range); mem_R below is membership in a
   set filed under it.  The reachable sets of this file are filed under sys_code, which the kernel
   evaluates much faster, so mem_R does not apply to them. *)
Definition nb (b : bool) : N := if b then 1%N else 0%N.
Definition nst (s : st) : N := N.of_nat (st_num s).
Definition ndir (i : dir) : N := match i with DOut => 0 | DIn => 1 end.
Definition ntrans (t : trans) : N := (nst (t_from t) * 7 + nst (t_to t))%N.
Definition nfpc (p : fpc) : N :=
  match p with
  | FOffer t => ntrans t
  | FAwait t => 50 + ntrans t
  | FRun s => 100 + nst s
  | FErrOffer s d e => 110 + (nst s * 7 + nst d) * 3 + N.of_nat (ekind_num e)
  | FExit => 300
  | FDone => 301
  end%N.
Definition nfsm (f : option fsm) : N :=
  match f with
  | None => 0
  | Some f => 1 + (nfpc (f_pc f) * 16 + nb (f_closed f) * 8 + nb (f_conn f) * 4 + nb (f_ceased f) * 2 + nb (f_bad f))
  end%N.
Definition nmop (m : mop) : N :=
  match m with
  | OStop i => ndir i
  | OWaitDone i => 2 + ndir i
  | OReply i t => 4 + ndir i * 49 + ntrans t
  | OEnable i => 110 + ndir i
  | OHandle i t => 112 + ndir i * 49 + ntrans t
  | OCollide i t => 220 + ndir i * 49 + ntrans t
  | ODamp => 330
  | OFinish => 331
  end%N.
Definition nops (l : list mop) : N := fold_left (fun acc m => acc * 337 + nmop m + 1)%N l 0%N.
Definition sys_key (s : sys) : positive :=
  N.succ_pos
    ((((((nops (s_ops s) * 49 + nst (fst (s_state s)) * 7 + nst (snd (s_state s))) * 5000 + nfsm (fst (s_fsm s))) * 5000
        + nfsm (snd (s_fsm s))) * 128
       + nb (s_hold s) * 64 + nb (s_timer s) * 32 + nb (s_pclosed s) * 16 + nb (s_mdone s) * 8
       + nb (s_passive s) * 4 + nb (s_dominant s) * 2 + nb (s_refused s)))%N).

(* The key under which the reachable sets below are filed: the program points of the two FSMs and whether
   the peer is being closed, written out bit by bit, the rest of the key passed along.  A key need not tell
   states apart, since membership is confirmed by sys_eqb; this one leaves three reachable states under a
   key on average and fourteen at most, which sys_eqb tells apart at their first fields.  Longer keys were
   dearer for the kernel (and for coqchk): the check computes a key per transition and walks a map as deep as
   the key is long. *)
Local Open Scope positive_scope.
Definition cbool (b : bool) (p : positive) : positive := if b then p~1 else p~0.
Definition cst (s : st) (p : positive) : positive :=
  match s with
  | Disabled => p~0~0~0 | Idle => p~0~0~1 | Connect => p~0~1~0 | Active => p~0~1~1
  | OpenSent => p~1~0~0 | OpenConfirm => p~1~0~1 | Established => p~1~1~0
  end.
Definition ctrans (t : trans) (p : positive) : positive := cst (t_from t) (cst (t_to t) p).
Definition cekind (e : ekind) (p : positive) : positive :=
  match e with ENil => p~0~0 | EDamp => p~0~1 | ENoDamp => p~1~0 end.
Definition cfpc (f : fpc) (p : positive) : positive :=
  match f with
  | FOffer t => (ctrans t p)~0~0~0
  | FAwait t => (ctrans t p)~0~0~1
  | FRun s => (cst s p)~0~1~0
  | FErrOffer s d e => (cst s (cst d (cekind e p)))~0~1~1
  | FExit => p~1~0~0
  | FDone => p~1~0~1
  end.
Definition cfsm (f : option fsm) (p : positive) : positive :=
  match f with None => p~0 | Some f => (cfpc (f_pc f) p)~1 end.
Definition sys_code (s : sys) : positive :=
  cfsm (fst (s_fsm s)) (cfsm (snd (s_fsm s)) (cbool (s_pclosed s) 1)).
Local Close Scope positive_scope.

Lemma all_outcomes_complete o : In o all_outcomes.
Proof.
  destruct o as [d e b]. apply in_flat_map. exists d. split; [destruct d; cbn; tauto|].
  apply in_flat_map. exists e. split; [destruct e; cbn; tauto|]. destruct b; cbn; tauto.
Qed.

Lemma labels_complete : forall l, In l labels.
Proof.
  assert (Hd : forall i, In i [DOut; DIn]) by (intros []; cbn; tauto).
  intros l. apply in_or_app.
  destruct l as [| | | |i|i| |i| |i| | | |i|i o|i]; try (left; cbn; tauto);
    right; apply in_flat_map; exists i; (split; [apply Hd|]); apply in_or_app;
    try (left; cbn; tauto).
  right. apply in_map, all_outcomes_complete.
Qed.

(* Of the 105 labels few can fire from a given state: 84 are returns of a state function with one of the 7 x 3 x 2
   conceivable outcomes, and an FSM can only return an outcome of the state function it is in.  So from s the
   check tries the 21 other labels and the returns that each FSM of s can make at that point *)
Definition not_run (l : label) : bool := match l with LFRun _ _ => false | _ => true end.
Definition other_labels : list label := Eval vm_compute in filter not_run labels.
Definition run_labels (s : sys) (i : dir) : list label :=
  match get (s_fsm s) i with
  | Some f => match f_pc f with FRun s0 => map (LFRun i) (outcomes s0 (f_conn f)) | _ => [] end
  | None => []
  end.
Definition labels_at (s : sys) : list label := run_labels s DOut ++ run_labels s DIn ++ other_labels.

Lemma outcome_eqb_eq a b : outcome_eqb a b = true -> a = b.
Proof.
  destruct a as [d e x], b as [d' e' x'].
  destruct d, d'; try discriminate; destruct e, e'; try discriminate; destruct x, x'; (reflexivity || discriminate).
Qed.

Lemma step_at s l s' : step s l = Some s' -> In l (labels_at s).
Proof.
  intros H. unfold labels_at. rewrite !in_app_iff. change other_labels with (filter not_run labels).
  destruct l as [| | | | | | | | | | | | | |i o|];
    try (right; right; apply filter_In; split; [apply labels_complete|reflexivity]).
  assert (Hi : In (LFRun i o) (run_labels s i)); [|destruct i; tauto].
  unfold run_labels. cbn [step] in H. destruct (get (s_fsm s) i) as [f|]; [|discriminate].
  destruct (f_pc f) as [| |s0| | |]; try discriminate.
  destruct (outcome_ok f s0 o false) eqn:E; [|discriminate]. apply andb_true_iff in E as [E _].
  apply existsb_exists in E as (x & Hx & E). rewrite (outcome_eqb_eq _ _ E). apply in_map, Hx.
Qed.

(* No transition reads the monitor bit s_refused and neither good_all nor step_all mentions it (step_forget,
   good_all_forget, step_all_forget below), so the sets hold the reachable states with the bit cleared, half as
   many, and the check runs on qstep, the step of that quotient. *)
Definition forget (s : sys) : sys :=
  mkSys (s_ops s) (s_state s) (s_fsm s) (s_hold s) (s_timer s) (s_pclosed s) (s_mdone s) (s_passive s) (s_dominant s) false.
Definition qstep (s : sys) (l : label) : option sys := option_map forget (step s l).

(* every branch of step on a state given by its fields: one goal per label and outcome of the tests on the way *)
Ltac step_cases l :=
  destruct l; cbv [step at_loop enable handle with_ops with_fsm with_state];
  cbn [s_ops s_state s_fsm s_hold s_timer s_pclosed s_mdone s_passive s_dominant s_refused];
  repeat match goal with |- context [match ?x with _ => _ end] => destruct x end.

Lemma step_forget s l : qstep (forget s) l = qstep s l.
Proof. destruct s as [ops sts fs hold tmr pcl mdn pas dom ref]. unfold forget, qstep. step_cases l; reflexivity. Qed.

Lemma qstep_at s l s' : qstep s l = Some s' -> In l (labels_at s).
Proof. unfold qstep. destruct (step s l) eqn:E; [intros _; exact (step_at _ _ _ E)|discriminate]. Qed.

(* the reachable states of each configuration.  Evaluated here, so that what the kernel
   (and coqchk, which has no bytecode machine) evaluates in closure_checks is the check of the set and
   not the search for it.  The case split makes each search a closed term.  Nothing is assumed of the
   search: with too little fuel, closure_checks would fail *)
Definition R_of : bool -> bool -> rset sys :=
  Eval vm_compute in
    (fun passive dominant =>
       let R p d := reach sys label qstep labels sys_code sys_eqb 2000 (init p d) in
       if passive then (if dominant then R true true else R true false)
       else (if dominant then R false true else R false false)).

Definition mem_R := mem sys sys_key sys_eqb.

Definition present (f : option fsm) : bool := match f with Some _ => true | None => false end.
Definition in_est (f : option fsm) : bool :=
  match f with Some f => match f_pc f with FRun Established => true | _ => false end | None => false end.
Definition ge_oc (x : st) : bool := st_ltb OpenSent x.
Definition pc_ge_oc (f : option fsm) : bool :=
  match f with
  | Some f => match f_pc f with
              | FRun s => ge_oc s
              | FOffer t | FAwait t => ge_oc (t_from t)
              | FErrOffer s _ _ => ge_oc s
              | _ => false
              end
  | None => false
  end.
Definition fbad (f : option fsm) : bool := match f with Some f => f_bad f | None => false end.
Definition fconn (f : option fsm) : bool := match f with Some f => f_conn f | None => false end.

(* C01: the two FSM goroutines are never both inside the Established state function *)
Definition good_mutex (s : sys) : bool := negb (in_est (fst (s_fsm s)) && in_est (snd (s_fsm s))).
(* C10: once the manager has finished (Close/DeletePeer returned) no FSM goroutine exists, so no
   connection is held and no callback can start *)
Definition good_done (s : sys) : bool :=
  negb (s_mdone s)
  || (negb (present (fst (s_fsm s))) && negb (present (snd (s_fsm s)))
      && match s_ops s with [] => true | _ => false end && negb (s_timer s)).
(* C12: while held down (manager at its loop) no FSM exists: both connections dropped, no dialling *)
Definition good_hold (s : sys) : bool :=
  negb (at_loop s && s_hold s) || (negb (present (fst (s_fsm s))) && negb (present (snd (s_fsm s)))).
(* C12: the hold-down timer is armed exactly while held down (so the peer is retried) *)
Definition good_hold_timer (s : sys) : bool := negb (at_loop s && negb (s_pclosed s)) || Bool.eqb (s_hold s) (s_timer s).
(* C07: outside shutdown, when the manager is back at its loop at most one FSM is at or beyond OpenConfirm *)
Definition good_coll (s : sys) : bool :=
  s_pclosed s || negb (at_loop s)
  || (negb (ge_oc (fst (s_state s)) && ge_oc (snd (s_state s)))
      && negb (pc_ge_oc (fst (s_fsm s)) && pc_ge_oc (snd (s_fsm s)))).
(* C10/C07: a connection of an FSM approved past Active is never closed by a stop without Cease *)
Definition good_cease (s : sys) : bool := negb (fbad (fst (s_fsm s))) && negb (fbad (snd (s_fsm s))).
(* C11: a passive peer never has an outbound FSM (so it never dials) *)
Definition good_passive (s : sys) : bool := negb (s_passive s) || negb (present (fst (s_fsm s))).
(* C10: progress after Close without waiting for the network or a timer (fsm.active with a connection sends
   its OPEN and returns without a select) *)
Definition self_progress (f : option fsm) : bool :=
  match f with Some f => match f_pc f with FRun Active => f_conn f | _ => false end | None => false end.
Definition progress_label (s : sys) (l : label) : bool :=
  match l with
  | LMPickClose | LMOp | LMReplySkip | LMCollideSkip | LMWaitDone _ | LFClose _ | LFExit _ => true
  | LFRun i o => o_stop o || self_progress (get (s_fsm s) i)
  | _ => false
  end.
Definition enabled (s : sys) (l : label) : bool := match step s l with Some _ => true | None => false end.
Definition good_progress (s : sys) : bool :=
  negb (s_pclosed s) || s_mdone s || existsb (fun l => progress_label s l && enabled s l) labels.

Definition goods : list (sys -> bool) :=
  [good_mutex; good_done; good_hold; good_hold_timer; good_coll; good_cease; good_passive; good_progress].
Definition good_all (s : sys) : bool := forallb (fun g => g s) goods.

(* rk bounds the system steps left after Close, and every such step decreases it (rank_ok): an FSM weighs
   the program points it has yet to pass; an operation weighs more than what executing it can push (OStop
   leaves OWaitDone, OEnable creates an FSM at FOffer, handle answers at most [OStop; OEnable]); and 8 stands
   for the [OStop; OStop; OFinish] that LMPickClose has yet to push *)
Definition rk_fsm (f : option fsm) : nat :=
  match f with
  | None => 0
  | Some f => match f_pc f with FRun _ => 5 | FErrOffer _ _ _ => 4 | FOffer _ | FAwait _ => 3 | FExit => 2 | FDone => 1 end
  end.
Definition rk_op (m : mop) : nat :=
  match m with
  | OFinish => 1 | OWaitDone _ => 2 | OStop _ => 3 | OReply _ _ => 1 | ODamp => 1 | OEnable _ => 4
  | OCollide _ _ => 1 | OHandle _ _ => 8
  end.
Definition has_finish (l : list mop) : bool := existsb (fun m => match m with OFinish => true | _ => false end) l.
Definition rk (s : sys) : nat :=
  fold_right (fun m acc => rk_op m + acc) 0 (s_ops s) + rk_fsm (fst (s_fsm s)) + rk_fsm (snd (s_fsm s))
  + (if s_mdone s || has_finish (s_ops s) then 0 else 8).
Definition rank_ok (s : sys) (l : label) (s' : sys) : bool :=
  negb (s_pclosed s && progress_label s l) || Nat.ltb (rk s') (rk s).
(* equality up to the monitor bit s_refused: of the images under forget *)
Definition core_eqb (a b : sys) : bool :=
  sys_eqb (mkSys (s_ops a) (s_state a) (s_fsm a) (s_hold a) (s_timer a) (s_pclosed a) (s_mdone a) (s_passive a) (s_dominant a) false)
          (mkSys (s_ops b) (s_state b) (s_fsm b) (s_hold b) (s_timer b) (s_pclosed b) (s_mdone b) (s_passive b) (s_dominant b) false).
(* C12: exactly an error of the damping kind (a non-Cease notification) received by the manager
   schedules a hold-down; nothing else sets inHoldDown *)
Definition has_damp (l : list mop) : bool := existsb (fun m => match m with ODamp => true | _ => false end) l.
Definition damp_ok (s : sys) (l : label) (s' : sys) : bool :=
  match l with
  | LMRecvErr i =>
      match get (s_fsm s) i with
      | Some f => match f_pc f with
                  | FErrOffer _ _ EDamp => has_damp (s_ops s')
                  | FErrOffer _ _ _ => negb (has_damp (s_ops s')) && Bool.eqb (s_hold s') (s_hold s)
                  | _ => true
                  end
      | None => true
      end
  | LMOp => Bool.eqb (has_damp (s_ops s)) (has_damp (s_ops s') || (negb (s_hold s) && s_hold s'))
            || negb (has_damp (s_ops s))
  | _ => (negb (s_hold s') || s_hold s) && Bool.eqb (has_damp (s_ops s')) (has_damp (s_ops s))
  end.
Definition step_all (s : sys) (l : label) (s' : sys) : bool := rank_ok s l s' && damp_ok s l s'.

Lemma closure_checks p d :
  check_at sys label qstep sys_code sys_eqb labels_at good_all step_all (init p d) (R_of p d) = true.
Proof. destruct p, d; vm_compute; reflexivity. Qed.

(* of the eight, only good_progress looks at step *)
Lemma good_progress_forget s : good_progress (forget s) = good_progress s.
Proof.
  assert (He : forall l, enabled (forget s) l = enabled s l).
  { intros l. pose proof (step_forget s l) as H. unfold qstep, enabled in *.
    destruct (step (forget s) l), (step s l); (reflexivity || discriminate). }
  unfold good_progress. f_equal.
  induction labels as [|l r IH]; cbn [existsb]; [reflexivity|]. rewrite IH, He. reflexivity.
Qed.

Lemma good_all_forget s : good_all (forget s) = good_all s.
Proof. unfold good_all, goods. cbn [forallb]. rewrite good_progress_forget. reflexivity. Qed.

Lemma step_all_forget s l s' : step_all (forget s) l (forget s') = step_all s l s'.
Proof. reflexivity. Qed.

Theorem reachable_good p d tr s :
  run sys label step (init p d) tr = Some s ->
  good_all s = true /\ forall l s', step s l = Some s' -> step_all s l s' = true.
Proof.
  intros Hr. apply (run_map _ _ step forget step_forget) in Hr.
  replace (forget (init p d)) with (init p d) in Hr by (destruct p; reflexivity).
  destruct (check_at_sound sys label qstep sys_code sys_eqb sys_eqb_eq labels_at qstep_at _ _ _ _
              (closure_checks p d) tr _ Hr) as [Hg Ht].
  rewrite good_all_forget in Hg. split; [exact Hg|]. intros l s' Hs.
  rewrite <- step_all_forget. apply Ht. rewrite step_forget. unfold qstep. rewrite Hs. reflexivity.
Qed.
