(* PrefixProofs.v — C19: prefix / add-path prefix list decoders are exact
   inverses of the specification encoders; MP splitters; IPv6 next hops. *)
From Verif Require Import Base Packet Errors Update PacketSpec UpdateSpec BaseLemmas ListDecode PacketProofs.

Definition addr_len (ipv6 : bool) : N := if ipv6 then 16 else 4.
Definition max_bits (ipv6 : bool) : N := if ipv6 then 128 else 32.

Lemma octets_of_le ipv6 bits : bits <= max_bits ipv6 -> octets_of bits <= addr_len ipv6.
Proof. unfold octets_of, max_bits, addr_len. destruct ipv6; lia. Qed.

Lemma prefix_wf_iff ipv6 p :
  prefix_wf ipv6 p = true <->
  p_bits p <= max_bits ipv6 /\ blen (p_addr p) = addr_len ipv6 /\ wf_bytes (p_addr p) = true
  /\ all_zero (drop (octets_of (p_bits p)) (p_addr p)) = true.
Proof. unfold prefix_wf, max_bits, addr_len. rewrite !andb_true_iff, N.leb_le, N.eqb_eq. destruct ipv6; tauto. Qed.

Lemma all_zero_repeat n : all_zero (repeat 0 n) = true.
Proof. induction n; cbn; auto. Qed.

Lemma all_zero_eq b : all_zero b = true -> b = repeat 0 (length b).
Proof.
  induction b as [|x b IH]; cbn [all_zero forallb length repeat]; [reflexivity|]. intros H.
  apply andb_true_iff in H as [Hx H]. apply N.eqb_eq in Hx. subst x. f_equal. auto.
Qed.

Lemma pad_to_iff n o x a :
  blen x = o -> o <= n ->
  (pad_to (N.to_nat n) x = a <-> blen a = n /\ take o a = x /\ all_zero (drop o a) = true).
Proof.
  intros Ho Hn. unfold pad_to. split.
  - intros <-. subst o. rewrite blen_app, blen_repeat, take_app_exact, drop_app_exact, all_zero_repeat.
    unfold blen in *. split; [lia|split; reflexivity].
  - intros (Hl & Hx & Hz). rewrite <- (take_drop o a), Hx. f_equal.
    rewrite (all_zero_eq _ Hz). f_equal. unfold drop, blen in *. rewrite skipn_length. lia.
Qed.

Lemma wf_bytes_pad_to n a : wf_bytes (pad_to n a) = wf_bytes a.
Proof.
  unfold pad_to. rewrite wf_bytes_app. replace (wf_bytes (repeat 0 _)) with true; [apply andb_true_r|].
  induction (n - length a)%nat; cbn; auto.
Qed.

Lemma decode_prefix_step ipv6 bl r :
  decode_prefix (bl :: r) ipv6 =
  if max_bits ipv6 <? bl then Err tt
  else if blen r <? octets_of bl then Err tt
  else Ok (mkPrefix bl (pad_to (N.to_nat (addr_len ipv6)) (take (octets_of bl) r)), drop (octets_of bl) r).
Proof.
  unfold decode_prefix, max_bits, addr_len.
  (* the two address families differ only in the constants; bl + 7 does not wrap once bl is in range *)
  destruct ipv6; cbn [negb andb orb];
    (destruct (_ <? bl) eqn:E; [reflexivity|]);
    replace (u8 (bl + 7) / 8) with (octets_of bl) by (unfold octets_of; rewrite u8_small by lia; reflexivity);
    cbv zeta; (destruct (blen r <? octets_of bl) eqn:E2; [reflexivity|]);
    rewrite slice_to_spec, slice_from_spec by lia;
    rewrite (proj2 (N.ltb_ge _ (octets_of bl))) by (unfold octets_of; lia); reflexivity.
Qed.

Lemma decode_prefix_enc ipv6 p rest :
  prefix_wf ipv6 p = true -> decode_prefix (spec_prefix_enc p ++ rest) ipv6 = Ok (p, rest).
Proof.
  intros H. apply prefix_wf_iff in H as (Hb & Hl & Hw & Hz).
  pose proof (octets_of_le ipv6 _ Hb) as Ho.
  unfold spec_prefix_enc. cbn [app]. rewrite decode_prefix_step.
  destruct (max_bits ipv6 <? p_bits p) eqn:E; [lia|].
  assert (Hx : blen (take (octets_of (p_bits p)) (p_addr p)) = octets_of (p_bits p)) by (apply blen_take; lia).
  rewrite blen_app, Hx, (proj2 (N.ltb_ge _ _)) by lia.
  rewrite <- Hx at 1 3. rewrite take_app_exact, drop_app_exact.
  rewrite (proj2 (pad_to_iff _ _ _ (p_addr p) Hx Ho)) by auto. destruct p; reflexivity.
Qed.

Lemma decode_prefix_sound ipv6 b :
  wf_bytes b = true ->
  match decode_prefix b ipv6 with
  | Ok (p, rest) => prefix_wf ipv6 p = true /\ b = spec_prefix_enc p ++ rest
  | Err _ => True
  | _ => False
  end.
Proof.
  intros Hw. destruct b as [|bl r]; [exact I|]. apply wf_bytes_cons_iff in Hw as [Hbl Hr].
  rewrite decode_prefix_step.
  destruct (max_bits ipv6 <? bl) eqn:E; [exact I|].
  destruct (blen r <? octets_of bl) eqn:E2; [exact I|].
  assert (Hx : blen (take (octets_of bl) r) = octets_of bl) by (apply blen_take; lia).
  assert (Ho : octets_of bl <= addr_len ipv6) by (apply octets_of_le; lia).
  destruct (proj1 (pad_to_iff _ _ _ _ Hx Ho) eq_refl) as (Hl & Ht & Hz).
  split.
  - apply prefix_wf_iff. cbn [p_bits p_addr]. rewrite wf_bytes_pad_to, wf_bytes_take by assumption.
    repeat split; [lia|assumption..].
  - unfold spec_prefix_enc. cbn [p_bits p_addr app]. rewrite Ht, take_drop. reflexivity.
Qed.

Lemma prefix_exact ipv6 : exact_item (fun b => decode_prefix b ipv6) spec_prefix_enc (prefix_wf ipv6).
Proof.
  split; [intros p r; apply decode_prefix_enc|intros b; apply decode_prefix_sound|discriminate].
Qed.

Lemma decode_prefixes_items ipv6 b :
  decode_prefixes b ipv6 = items_decode (fun b => decode_prefix b ipv6) b.
Proof. apply (items_loop_unique _ (fun f b => decode_prefixes_loop f b ipv6)); reflexivity. Qed.

Theorem prefixes_total ipv6 b :
  wf_bytes b = true -> decode_prefixes b ipv6 <> Panic /\ decode_prefixes b ipv6 <> OutOfFuel.
Proof. rewrite decode_prefixes_items. apply (items_total (prefix_exact ipv6)). Qed.

(* one iteration of decode_ap_prefixes_loop: a 4-octet path identifier, then a prefix *)
Definition decode_apprefix (ipv6 : bool) (b : bytes) : res unit (apprefix * bytes) :=
  match b with
  | i3 :: i2 :: i1 :: i0 :: (_ :: _) as r =>
      do pr <- decode_prefix r ipv6; Ok (mkAPP (get32 i3 i2 i1 i0) (fst pr), snd pr)
  | _ => Err tt
  end.

Lemma apprefix_exact ipv6 : exact_item (decode_apprefix ipv6) spec_apprefix_enc (apprefix_wf ipv6).
Proof.
  split.
  - intros [id p] r H. apply andb_true_iff in H as [Hid Hp]. cbn [app_id app_prefix] in *.
    unfold spec_apprefix_enc, be32. cbn [app_id app_prefix app decode_apprefix].
    destruct (spec_prefix_enc p ++ r) eqn:Er; [discriminate|]. rewrite <- Er.
    rewrite decode_prefix_enc by assumption. cbn [rbind fst snd]. rewrite put32_get32 by lia. reflexivity.
  - intros b Hw. destruct b as [|i3 [|i2 [|i1 [|i0 [|x r]]]]]; try exact I.
    apply wf4 in Hw as (H3 & H2 & H1 & H0 & Hw). cbn [decode_apprefix].
    pose proof (decode_prefix_sound ipv6 _ Hw) as Hd.
    destruct (decode_prefix (x :: r) ipv6) as [[p rest]| | |]; cbn [rbind fst snd]; try exact Hd.
    destruct Hd as [Hp ->]. unfold apprefix_wf, spec_apprefix_enc. cbn [app_id app_prefix].
    rewrite Hp, be32_get32 by assumption. pose proof (get32_lt i3 i2 i1 i0 H3 H2 H1 H0). split; [lia|reflexivity].
  - intros a. discriminate.
Qed.

Lemma decode_ap_prefixes_items ipv6 b :
  decode_ap_prefixes b ipv6 = items_decode (decode_apprefix ipv6) b.
Proof.
  apply (items_loop_unique _ (fun f b => decode_ap_prefixes_loop f b ipv6)); [reflexivity|].
  clear b. intros f b. cbn [decode_ap_prefixes_loop].
  destruct b as [|i3 [|i2 [|i1 [|i0 [|x r]]]]]; try reflexivity. cbn [decode_apprefix].
  destruct (decode_prefix (x :: r) ipv6); reflexivity.
Qed.

Theorem ap_prefixes_total ipv6 b :
  wf_bytes b = true -> decode_ap_prefixes b ipv6 <> Panic /\ decode_ap_prefixes b ipv6 <> OutOfFuel.
Proof. rewrite decode_ap_prefixes_items. apply (items_total (apprefix_exact ipv6)). Qed.

Lemma attr_err_data_spec code b : blen b < 65536 -> attr_err_data code b = spec_attr_tlv code b.
Proof.
  intros Hb. unfold attr_err_data, spec_attr_tlv. cbn [app].
  destruct (255 <? blen b) eqn:E; destruct (blen b <=? 255) eqn:E'; try lia.
  - rewrite u16_small by lia. rewrite put16_be16 by lia. reflexivity.
  - rewrite u8_small by lia. reflexivity.
Qed.

Lemma flags_validate_spec flags code b o t :
  blen b < 65536 -> flags_validate flags code b o t = spec_flag_err code flags b (o, t).
Proof.
  intros Hb. unfold flags_validate, spec_flag_err, flags_match, flag_optional, flag_transitive. cbn [fst snd].
  replace (negb ((flags / 128) mod 2 =? 0)) with (128 <=? flags mod 256) by lia.
  replace (negb ((flags / 64) mod 2 =? 0)) with (64 <=? flags mod 128) by lia.
  rewrite attr_err_data_spec by assumption.
  destruct (128 <=? flags mod 256), (64 <=? flags mod 128), o, t; reflexivity.
Qed.

Definition mp_len_notif : err := ENotif (mkNotif 3 5 []).

Theorem mp_reach_spec flags b cb :
  blen b < 65536 ->
  mp_reach flags b cb =
  Ok (let fe := spec_flag_err 14 flags b (true, false) in
      match b with
      | a1 :: a0 :: safi :: nh :: rest =>
          if nh + 1 <=? blen rest
          then (Some (MPReach (a1 * 256 + a0) safi (take nh rest) (drop (nh + 1) rest)), join2 fe cb)
          else (None, join2 fe (Some mp_len_notif))
      | _ => (None, join2 fe (Some mp_len_notif))
      end).
Proof.
  intros Hb. unfold mp_reach. rewrite flags_validate_spec by assumption.
  destruct b as [|a1 [|a0 [|safi [|nh rest]]]]; try reflexivity.
  destruct (nh + 1 <=? blen rest) eqn:E.
  - replace (blen (a1 :: a0 :: safi :: nh :: rest) <? 5) with false by (rewrite !blen_cons; lia).
    replace (blen rest <? nh + 1) with false by lia. rewrite slice_to_spec, slice_from_spec by lia. reflexivity.
  - replace (blen rest <? nh + 1) with true by lia. destruct (blen _ <? 5); reflexivity.
Qed.

Theorem mp_unreach_spec flags b cb :
  blen b < 65536 ->
  mp_unreach flags b cb =
  Ok (let fe := spec_flag_err 15 flags b (true, false) in
      match b with
      | a1 :: a0 :: safi :: wd => (Some (MPUnreach (a1 * 256 + a0) safi wd), join2 fe cb)
      | _ => (None, join2 fe (Some mp_len_notif))
      end).
Proof.
  intros Hb. unfold mp_unreach. rewrite flags_validate_spec by assumption.
  destruct b as [|a1 [|a0 [|safi wd]]]; reflexivity.
Qed.

Lemma chunks16_spec : forall n f b,
  length b = (16 * n)%nat -> (n < f)%nat ->
  concat (chunks16 f b) = b /\ Forall (fun a => blen a = 16) (chunks16 f b).
Proof.
  induction n as [|n IH]; intros f b Hl Hf; (destruct f as [|f]; [lia|]); cbn [chunks16].
  - destruct b; [|discriminate]. split; [reflexivity|constructor].
  - replace (0 <? blen b) with true by (unfold blen; lia).
    destruct (IH f (drop 16 b)) as [Hc Ha]; [unfold drop; rewrite skipn_length; lia|lia|].
    cbn [concat]. rewrite Hc, take_drop. split; [reflexivity|]. constructor; [|exact Ha].
    apply blen_take. unfold blen. lia.
Qed.

