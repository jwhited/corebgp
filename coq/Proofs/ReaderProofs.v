(* ReaderProofs.v — C08/C03: the reader delimits messages solely by the header length
   field, independent of TCP segmentation; delivers every well-formed message before the
   first fault; reports the fault with the RFC's notification; interprets nothing after.  At the
   end, the FSM's side of C03: what Established does with delivered UPDATEs and KEEPALIVEs. *)
From Verif Require Import Base Consts Packet PacketSpec Conn BaseLemmas.

Lemma read_one_short s : blen s < 19 -> read_one s = RWait.
Proof. intros H. unfold read_one, c_headerLength. replace (blen s <? 19) with true by lia. reflexivity. Qed.

Lemma read_one_bad_marker s :
  19 <= blen s -> take 16 s <> marker -> read_one s = RFault (RErrNotif (mkNotif 1 1 [])).
Proof.
  intros Hl Hm. unfold read_one, c_headerLength. replace (blen s <? 19) with false by lia.
  assert (Ht : take 16 (take 19 s) = take 16 s).
  { unfold take. rewrite firstn_firstn. reflexivity. }
  rewrite Ht. destruct (beqb (take 16 s) marker) eqn:E; [apply beqb_eq in E; contradiction|reflexivity].
Qed.

Lemma read_one_header l1 l0 t rest :
  read_one (marker ++ l1 :: l0 :: t :: rest) =
  if (get16 l1 l0 <? 19) || (4096 <? get16 l1 l0) then RFault (RErrNotif (mkNotif 1 2 []))
  else if 19 + blen rest <? get16 l1 l0 then RWait
  else match message_from_bytes (take (get16 l1 l0 - 19) rest) t with
       | Ok m => RGood m (drop (get16 l1 l0 - 19) rest)
       | Err (MEnotif n) => RFault (RErrNotif n)
       | _ => RFault RErrIO
       end.
Proof.
  unfold read_one, c_headerLength, c_maxMessageLength.
  replace (blen (marker ++ l1 :: l0 :: t :: rest)) with (19 + blen rest)
    by (rewrite blen_app, !blen_cons; change (blen marker) with 16; lia).
  replace (19 + blen rest <? 19) with false by lia.
  change (take 16 (take 19 (marker ++ l1 :: l0 :: t :: rest))) with marker. rewrite beqb_refl.
  change (drop 16 (take 19 (marker ++ l1 :: l0 :: t :: rest))) with [l1; l0; t]. cbv iota beta zeta. cbn [negb].
  destruct ((get16 l1 l0 <? 19) || (4096 <? get16 l1 l0)) eqn:El; [reflexivity|].
  destruct (19 + blen rest <? get16 l1 l0); [reflexivity|].
  replace (drop (get16 l1 l0) (marker ++ l1 :: l0 :: t :: rest)) with (drop (get16 l1 l0 - 19) rest); [reflexivity|].
  unfold drop. replace (N.to_nat (get16 l1 l0)) with (19 + N.to_nat (get16 l1 l0 - 19))%nat by lia. reflexivity.
Qed.

Lemma stream_cases s :
  blen s < 19 \/ (19 <= blen s /\ take 16 s <> marker) \/ exists l1 l0 t rest, s = marker ++ l1 :: l0 :: t :: rest.
Proof.
  destruct (blen s <? 19) eqn:E; [left; lia|right].
  destruct (beqb (take 16 s) marker) eqn:Em.
  - right. apply beqb_eq in Em. rewrite <- (take_drop 16 s), Em.
    pose proof (blen_drop 16 s) as Hd. destruct (drop 16 s) as [|l1 [|l0 [|t rest]]]; cbn in Hd; try lia.
    exists l1, l0, t, rest. reflexivity.
  - left. split; [lia|]. intros H. rewrite H, beqb_refl in Em. discriminate.
Qed.

Lemma read_one_frame t body rest :
  blen body <= 4077 ->
  read_one (spec_frame_enc t body ++ rest) =
  match message_from_bytes body t with
  | Ok m => RGood m rest
  | Err (MEnotif n) => RFault (RErrNotif n)
  | _ => RFault RErrIO
  end.
Proof.
  intros Hb.
  change (spec_frame_enc t body ++ rest)
    with (marker ++ (19 + blen body) / 256 :: (19 + blen body) mod 256 :: t :: body ++ rest).
  rewrite read_one_header, put16_get16, blen_app by lia.
  replace ((19 + blen body <? 19) || (4096 <? 19 + blen body)) with false by lia.
  replace (19 + (blen body + blen rest) <? 19 + blen body) with false by lia.
  replace (19 + blen body - 19) with (blen body) by lia. rewrite take_app_exact, drop_app_exact. reflexivity.
Qed.

(* decisions of one iteration depend only on the bytes of the message itself *)
Lemma read_one_app s x :
  match read_one s with
  | RWait => True
  | RFault e => read_one (s ++ x) = RFault e
  | RGood m rest => read_one (s ++ x) = RGood m (rest ++ x)
  end.
Proof.
  destruct (stream_cases s) as [H|[[H Hm]|(l1 & l0 & t & rest & ->)]].
  - rewrite read_one_short by assumption. exact I.
  - rewrite !read_one_bad_marker; rewrite ?take_app_le, ?blen_app; trivial; lia.
  - change ((marker ++ l1 :: l0 :: t :: rest) ++ x) with (marker ++ l1 :: l0 :: t :: rest ++ x).
    rewrite !read_one_header, blen_app.
    destruct ((get16 l1 l0 <? 19) || (4096 <? get16 l1 l0)); [reflexivity|].
    destruct (19 + blen rest <? get16 l1 l0) eqn:E; [exact I|].
    replace (19 + (blen rest + blen x) <? get16 l1 l0) with false by lia.
    rewrite take_app_le, drop_app_le by lia.
    destruct (message_from_bytes _ t) as [m|[n|]| |]; reflexivity.
Qed.

Lemma read_one_good_shrinks s m rest : read_one s = RGood m rest -> (length rest + 19 <= length s)%nat.
Proof.
  destruct (stream_cases s) as [H|[[H Hm]|(l1 & l0 & t & r & ->)]].
  - rewrite read_one_short by assumption. discriminate.
  - rewrite read_one_bad_marker by assumption. discriminate.
  - rewrite read_one_header.
    destruct (_ || _); [discriminate|]. destruct (_ <? _); [discriminate|].
    destruct (message_from_bytes _ t) as [m'|[n|]| |]; try discriminate.
    intros [= _ <-]. unfold drop. rewrite app_length, skipn_length. cbn. lia.
Qed.

Lemma read_loop_fuel : forall f1 f2 s,
  (length s < f1)%nat -> (length s < f2)%nat -> read_loop f1 s = read_loop f2 s.
Proof.
  induction f1 as [|f1 IH]; intros f2 s H1 H2; [lia|]. destruct f2 as [|f2]; [lia|].
  cbn [read_loop]. destruct (read_one s) as [|e|m rest] eqn:E; try reflexivity.
  apply read_one_good_shrinks in E. rewrite (IH f2 rest) by lia. reflexivity.
Qed.

Definition parse (s : bytes) := read_loop (S (length s)) s.
Arguments parse : simpl never.

Lemma parse_unfold s :
  parse s = match read_one s with
            | RWait => ([], s, false)
            | RFault e => ([e], s, true)
            | RGood m rest => let '(evs, r, st) := parse rest in (RMsg m :: evs, r, st)
            end.
Proof.
  unfold parse. cbn [read_loop]. destruct (read_one s) as [|e|m rest] eqn:E; try reflexivity.
  apply read_one_good_shrinks in E. rewrite (read_loop_fuel (length s) (S (length rest)) rest) by lia. reflexivity.
Qed.

(* appending bytes to a stream the reader is still waiting on continues the parse; after a
   fault nothing further is interpreted *)
Lemma parse_app x s :
  parse (s ++ x) = let '(evs, rest, st) := parse s in
                   if st then (evs, rest ++ x, true)
                   else let '(e2, r2, st2) := parse (rest ++ x) in (evs ++ e2, r2, st2).
Proof.
  induction s as [s IH] using (induction_ltof1 _ (@length N)). unfold ltof in IH.
  rewrite (parse_unfold s). pose proof (read_one_app s x) as Ha. destruct (read_one s) as [|e|m rest] eqn:E.
  - destruct (parse (s ++ x)) as [[e2 r2] st2]. reflexivity.
  - rewrite parse_unfold, Ha. reflexivity.
  - rewrite (parse_unfold (s ++ x)), Ha, IH by (apply read_one_good_shrinks in E; lia).
    destruct (parse rest) as [[evs r] [|]]; [reflexivity|]. destruct (parse (r ++ x)) as [[e2 r2] st2]. reflexivity.
Qed.

Lemma feed_parse st chunk :
  r_stopped st = false ->
  feed st chunk = (let '(evs, rest, stopped) := parse (r_buf st ++ chunk) in (mkR rest stopped, evs)).
Proof. intros H. unfold feed, parse. rewrite H. reflexivity. Qed.

Lemma feed_all_stopped st chunks : r_stopped st = true -> feed_all st chunks = (st, []).
Proof.
  intros H. induction chunks as [|c r IH]; [reflexivity|]. cbn [feed_all]. unfold feed. rewrite H, IH. reflexivity.
Qed.

(* the chunk-fed reader is, at every moment, the parse of all it has been fed *)
Theorem feed_all_parse : forall chunks pre,
  let '(e0, rest, st) := parse pre in
  fst (fst (parse (pre ++ concat chunks))) = e0 ++ snd (feed_all (mkR rest st) chunks).
Proof.
  induction chunks as [|c r IH]; intros pre; cbn [concat].
  - rewrite app_nil_r. destruct (parse pre) as [[e0 rest] st]. symmetry. apply app_nil_r.
  - pose proof (parse_app (c ++ concat r) pre) as Hx. pose proof (parse_app c pre) as Hc.
    specialize (IH (pre ++ c)). rewrite <- app_assoc in IH.
    destruct (parse pre) as [[e0 rest] [|]].
    + rewrite Hx, feed_all_stopped, app_nil_r; reflexivity.
    + cbn [feed_all]. rewrite feed_parse by reflexivity. cbn [r_buf]. rewrite Hc in IH.
      destruct (parse (rest ++ c)) as [[e1 rest1] st1]. rewrite IH.
      destruct (feed_all (mkR rest1 st1) r). symmetry. apply app_assoc.
Qed.

Lemma parse_nil : parse [] = ([], [], false).
Proof. reflexivity. Qed.

Corollary feed_all_init chunks : snd (feed_all rinit chunks) = fst (fst (parse (concat chunks))).
Proof. symmetry. exact (feed_all_parse chunks []). Qed.

(* a well-formed message as (type, body) and what the reader makes of it *)
Definition good_msg (tb : N * bytes) (m : msg) : Prop :=
  blen (snd tb) <= 4077 /\ fst tb < 256 /\ message_from_bytes (snd tb) (fst tb) = Ok m.
Definition frames (l : list (N * bytes)) : bytes := flat_map (fun tb => spec_frame_enc (fst tb) (snd tb)) l.

Theorem parse_frames : forall l ms tail,
  Forall2 good_msg l ms ->
  parse (frames l ++ tail) = (let '(evs, r, st) := parse tail in (map RMsg ms ++ evs, r, st)).
Proof.
  induction l as [|[t b] l IH]; intros ms tail H; inversion H as [|? m ? ms' Hg Hr]; subst.
  - cbn. destruct (parse tail) as [[e r] s]. reflexivity.
  - destruct Hg as (Hb & _ & Hm). cbn [fst snd] in *.
    unfold frames. cbn [flat_map fst snd]. rewrite <- app_assoc, parse_unfold, read_one_frame, Hm by exact Hb.
    fold (frames l). rewrite (IH ms' tail Hr). destruct (parse tail) as [[e r] s]. reflexivity.
Qed.

(* C03: UPDATEs and KEEPALIVEs in any segmentation *)
Definition upd_or_ka (tb : N * bytes) : Prop :=
  (fst tb = 2 /\ blen (snd tb) <= 4077) \/ (fst tb = 4 /\ snd tb = []).
Definition msg_of (tb : N * bytes) : msg := if fst tb =? 2 then MUpdate (snd tb) else MKeepalive.

Lemma upd_or_ka_good tb : upd_or_ka tb -> good_msg tb (msg_of tb).
Proof.
  destruct tb as [t b]. unfold upd_or_ka, good_msg, msg_of. cbn [fst snd].
  intros [[-> Hb]|[-> ->]]; repeat split; try assumption; try reflexivity; cbn; lia.
Qed.

(* C03 at the FSM: delivered exactly once, in order, byte-exact.  established_step is stated for msg_of tb
   and a count that grows by length (update_bodies [tb]) so that the induction of C03.c03_handler_calls over a
   list of such messages goes through as it stands *)
Definition handler_calls (acts : list caction) : list bytes :=
  flat_map (fun a => match a with AHandler b => [b] | _ => [] end) acts.
Definition update_bodies (l : list (N * bytes)) : list bytes :=
  flat_map (fun tb => if fst tb =? 2 then [snd tb] else []) l.

Lemma handler_calls_app a b : handler_calls (a ++ b) = handler_calls a ++ handler_calls b.
Proof. unfold handler_calls. apply flat_map_app. Qed.

Lemma established_step cf pl h k tb :
  pl_handler pl k = None ->
  exists acts,
    conn_step cf pl (mkC PEstablished h k) (IRd (RMsg (msg_of tb)))
    = (mkC PEstablished h (k + length (update_bodies [tb])), acts)
    /\ handler_calls acts = update_bodies [tb].
Proof.
  intros Hh. unfold msg_of, update_bodies. cbn [flat_map].
  destruct (fst tb =? 2); cbn [conn_step c_phase c_holdns c_nupd app length].
  - rewrite Hh, Nat.add_1_r. eexists. split; [reflexivity|]. destruct (h =? 0); reflexivity.
  - rewrite Nat.add_0_r. eexists. split; [reflexivity|]. destruct (h =? 0); reflexivity.
Qed.
