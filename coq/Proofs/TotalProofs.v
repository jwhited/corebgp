(* TotalProofs.v — what C05's decoder half claims of every exported decoding entry point:
   it returns (a value or an error) for every byte string; no Panic, no OutOfFuel. *)
From Verif Require Import Base.

Definition returns {E A} (r : res E A) : Prop := r <> Panic /\ r <> OutOfFuel.
