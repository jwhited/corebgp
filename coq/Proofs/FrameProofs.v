(* FrameProofs.v — C04: the frames corebgp writes are well-formed (prepend_header_wf), a
   concatenation of well-formed frames parses back uniquely (frames_self_delimiting), and every
   NOTIFICATION the connection state machine sends is representable (origin_repr). *)
From Verif Require Import Base Consts Packet PacketSpec Conn BaseLemmas PacketProofs ConnProofs.

Definition wf_frame (m : bytes) : Prop := exists t body, spec_frame_parse m = Some (t, body) /\ m = spec_frame_enc t body.

(* every message corebgp writes is built by prepend_header *)
Lemma prepend_header_wf m t : blen m <= 4077 -> known_type t = true -> wf_frame (prepend_header m t).
Proof.
  intros Hb Ht. rewrite prepend_header_spec by lia. exists t, m.
  split; [apply spec_frame_parse_enc; assumption|reflexivity].
Qed.

Lemma notif_encode_wf n : notif_repr n = true -> wf_frame (notif_encode n).
Proof.
  intros H. unfold notif_encode. rewrite notif_body_spec.
  apply prepend_header_wf; [apply notif_body_fits, H|reflexivity].
Qed.

Lemma keepalive_wf : wf_frame keepalive_encode.
Proof. unfold keepalive_encode. apply prepend_header_wf; [rewrite blen_nil; lia|reflexivity]. Qed.

Lemma update_frame_wf b : blen b <= 4077 -> wf_frame (update_frame b).
Proof. intros H. unfold update_frame. apply prepend_header_wf; [exact H|reflexivity]. Qed.

Lemma spec_stream_parse_frame fuel t b rest :
  blen b <= 4077 -> known_type t = true ->
  spec_stream_parse (S fuel) (spec_frame_enc t b ++ rest) =
  match spec_stream_parse fuel rest with Some ms => Some ((t, b) :: ms) | None => None end.
Proof.
  intros Hb Ht. cbn [spec_stream_parse].
  destruct (spec_frame_enc t b ++ rest) as [|x0 xs] eqn:Es; [discriminate Es|]. rewrite <- Es. clear x0 xs Es.
  change (skipn 16 (spec_frame_enc t b ++ rest)) with (be16 (19 + blen b) ++ [t] ++ b ++ rest).
  unfold be16. cbn [app].
  replace ((19 + blen b) / 256 * 256 + (19 + blen b) mod 256) with (19 + blen b) by lia.
  replace ((19 <=? 19 + blen b) && (19 + blen b <=? blen (spec_frame_enc t b ++ rest))) with true
    by (rewrite blen_app, blen_frame; lia).
  rewrite <- (blen_frame t b), take_app_exact, drop_app_exact, spec_frame_parse_enc by assumption.
  reflexivity.
Qed.

(* the stream of several writes, in whatever order they were serialised, parses back to
   exactly those messages *)
Theorem frames_self_delimiting : forall (fs : list (N * bytes)) fuel,
  Forall (fun tb => blen (snd tb) <= 4077 /\ known_type (fst tb) = true) fs ->
  (length fs < fuel)%nat ->
  spec_stream_parse fuel (flat_map (fun tb => spec_frame_enc (fst tb) (snd tb)) fs) = Some fs.
Proof.
  induction fs as [|[t b] fs IH]; intros fuel H Hf; (destruct fuel as [|fuel]; [cbn in Hf; lia|]); [reflexivity|].
  inversion H as [|? ? [Hb Ht] Hr]; subst. cbn [flat_map fst snd] in *.
  rewrite spec_stream_parse_frame, IH by (assumption || (cbn in Hf; lia)). reflexivity.
Qed.

(* every write of the connection state machine is a well-formed message: what is asked of the plugin and the reader *)
Definition plugin_ok (pl : cplugin) : Prop :=
  (forall n, pl_on_open pl = Some n -> notif_repr n = true)
  /\ (forall k n, pl_handler pl k = Some n -> notif_repr n = true)
  /\ Forall (fun b => blen b <= 4077) (pl_est_writes pl).

Definition input_ok (i : cinput) : Prop :=
  match i with IRd (RErrNotif n) => notif_repr n = true | _ => True end.

(* a chain of checks of which the first failing one decides: what holds of each answer holds of the result *)
Lemma first_check {A} (P : A -> Prop) (c : bool) (x : A) (k : option A) :
  P x -> (forall y, k = Some y -> P y) -> forall y, (if c then Some x else k) = Some y -> P y.
Proof. intros Hx Hk y. destruct c; [intros [= <-]; exact Hx|apply Hk]. Qed.

Lemma validate_caps_repr ras : forall cs found n, validate_caps ras cs found = Err n -> notif_repr n = true.
Proof.
  induction cs as [|c cs IH]; intros found n Ev; [discriminate|].
  cbn [validate_caps] in Ev. destruct (cap_code c =? c_CAP_FOUR_OCTET_AS); [|exact (IH _ _ Ev)].
  destruct (cap_val c) as [|a1 [|a2 [|a3 [|a4 [|a5 r]]]]]; try (injection Ev as <-; reflexivity).
  destruct (get32 a1 a2 a3 a4 =? ras); [exact (IH _ _ Ev)|injection Ev as <-; reflexivity].
Qed.

Lemma open_validate_repr lid las ras o n : open_validate lid las ras o = Some n -> notif_repr n = true.
Proof.
  revert n. unfold open_validate. do 5 (apply first_check; [reflexivity|]).
  destruct (validate_caps ras (get_capabilities o) false) as [f|e| |] eqn:Ev; try discriminate.
  - apply first_check; [reflexivity|]. apply first_check; [|discriminate].
    (* the data names the capability that is missing: six octets, whatever the AS number *)
    unfold notif_repr, open_err, cap_encode, four_octet_cap, put32, wf_bytes, wf_byte. cbn. lia.
  - intros n [= <-]. exact (validate_caps_repr _ _ _ _ Ev).
Qed.

Lemma origin_repr cf pl k i n :
  plugin_ok pl -> input_ok i -> origin cf pl k i n -> notif_repr n = true.
Proof.
  intros (Hoo & Hh & _) Hi Ho. revert Hi. destruct Ho as [ | |? sub m Hs| |? o n Ev|? n Eo|? n Eh]; intros Hi.
  - reflexivity.
  - reflexivity.
  - unfold notif_repr, fsm_err. cbn [n_code n_sub n_data]. apply N.ltb_lt in Hs. rewrite Hs. destruct m; reflexivity.
  - exact Hi.
  - exact (open_validate_repr _ _ _ _ _ Ev).
  - exact (Hoo _ Eo).
  - exact (Hh _ _ Eh).
Qed.
