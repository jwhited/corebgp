(* PacketProofs.v — header / NOTIFICATION / OPEN / capability codec theorems. *)
From Verif Require Import Base Consts Packet PacketSpec OpenSpec BaseLemmas.

Lemma put16_be16 x : x < 65536 -> put16 x = be16 x.
Proof. unfold put16, be16. intros. f_equal. lia. Qed.
Lemma put32_be32 x : x < 4294967296 -> put32 x = be32 x.
Proof. unfold put32, be32. intros. f_equal. lia. Qed.
Lemma be16_get16 a b : a < 256 -> b < 256 -> be16 (get16 a b) = [a; b].
Proof. intros Ha Hb. rewrite <- put16_be16 by (apply get16_lt; assumption). apply get16_put16; assumption. Qed.
Lemma be32_get32 a b c d : a < 256 -> b < 256 -> c < 256 -> d < 256 ->
  be32 (get32 a b c d) = [a; b; c; d].
Proof. intros Ha Hb Hc Hd. rewrite <- put32_be32 by (apply get32_lt; assumption). apply get32_put32; assumption. Qed.

Lemma blen_frame t body : blen (spec_frame_enc t body) = 19 + blen body.
Proof. unfold spec_frame_enc, be16. rewrite !blen_app, blen_repeat, !blen_cons, blen_nil. lia. Qed.

Lemma prepend_header_spec m t :
  blen m <= 4077 -> prepend_header m t = spec_frame_enc t m.
Proof.
  intros H. unfold prepend_header, spec_frame_enc, marker, c_headerLength.
  rewrite u16_small, put16_be16, N.add_comm by lia. reflexivity.
Qed.

Lemma spec_frame_parse_enc t body :
  blen body <= 4077 -> known_type t = true ->
  spec_frame_parse (spec_frame_enc t body) = Some (t, body).
Proof.
  intros H Ht. unfold spec_frame_parse. rewrite blen_frame.
  replace ((19 <=? 19 + blen body) && (19 + blen body <=? 4096)) with true by lia.
  unfold spec_frame_enc, be16.
  change (firstn 16 (repeat 255 16 ++ ?x)) with (repeat 255 16).
  change (skipn 16 (repeat 255 16 ++ ?x)) with x.
  rewrite beqb_refl. cbn [andb app].
  replace ((19 + blen body) / 256 * 256 + (19 + blen body) mod 256 =? 19 + blen body) with true by lia.
  rewrite Ht. reflexivity.
Qed.

Lemma notif_body_spec n : notif_body n = spec_notif_body n.
Proof. destruct n as [c s [|x d]]; reflexivity. Qed.

Lemma notif_body_fits n : notif_repr n = true -> blen (spec_notif_body n) <= 4077.
Proof. intros [_ Hl]%andb_true_iff. unfold spec_notif_body. rewrite !blen_cons. lia. Qed.

Theorem notif_roundtrip n :
  notif_repr n = true ->
  spec_frame_parse (notif_encode n) = Some (3, spec_notif_body n)
  /\ notif_decode (spec_notif_body n) = Some n.
Proof.
  intros Hb%notif_body_fits. split; [|destruct n; reflexivity].
  unfold notif_encode. rewrite notif_body_spec, prepend_header_spec by assumption.
  apply spec_frame_parse_enc; [assumption|reflexivity].
Qed.

Definition tlv_enc (tv : N * bytes) : bytes := fst tv :: blen (snd tv) :: snd tv.
Definition tlv_repr (tv : N * bytes) : bool :=
  (fst tv <? 256) && wf_bytes (snd tv) && (blen (snd tv) <=? 255).

Lemma tlv_walk_cons g t l r :
  tlv_walk (S g) (t :: l :: r) =
  if l <=? blen r then ((t, take l r) :: fst (tlv_walk g (drop l r)), snd (tlv_walk g (drop l r)))
  else ([], false).
Proof. cbn [tlv_walk]. destruct (l <=? blen r); [|reflexivity]. destruct (tlv_walk g (drop l r)). reflexivity. Qed.

(* The loops of caps_decode and params_decode are one loop over TLVs with an item decoder; tlv_step
   shows that Go's slicing is the step of OpenSpec's walk.  The round trip, and what the loop does
   on well-formed bytes, are proved once, from the item decoder's.  (Not an instance of ListDecode:
   this loop refuses the empty field, and C02 needs its refusals named.) *)
Fixpoint tlv_loop {A} (item : N * bytes -> res notif A) (fuel : nat) (b : bytes) : res notif (list A) :=
  match fuel with
  | O => OutOfFuel
  | S f =>
      match b with
      | t :: l :: r =>
          if l <=? blen r then
            do x <- item (t, take l r);
            if blen (drop l r) =? 0 then Ok [x] else do xs <- tlv_loop item f (drop l r); Ok (x :: xs)
          else Err (open_err 0 [])
      | _ => Err (open_err 0 [])
      end
  end.

Lemma tlv_step {A} code len r (k : bytes -> bytes -> res notif A) :
  blen (code :: len :: r) < 256 ->
  (if blen (code :: len :: r) <? len + 2 then Err (open_err 0 []) else
   do v <- (if 0 <? len then of_opt (slice (code :: len :: r) 2 (u8 (len + 2))) else Ok []);
   do rest <- of_opt (slice_from (code :: len :: r) (2 + len)); k v rest)
  = if len <=? blen r then k (take len r) (drop len r) else Err (open_err 0 []).
Proof.
  intros Hb. rewrite !blen_cons in *.
  destruct (len <=? blen r) eqn:Hl; [|replace (1 + (1 + blen r) <? len + 2) with true by lia; reflexivity].
  replace (1 + (1 + blen r) <? len + 2) with false by lia.
  rewrite slice_from_spec by (rewrite !blen_cons; lia). cbn [of_opt]. rewrite drop_cons2.
  destruct (0 <? len) eqn:E0.
  - (* len + 2 <= blen b < 256: the uint8 sum does not wrap *)
    rewrite u8_small, slice_spec by (rewrite ?blen_cons; lia).
    replace (len + 2 - 2) with len by lia. reflexivity.
  - replace len with 0 by lia. reflexivity.
Qed.

Section TlvLoop.
Context {A : Type} (item : N * bytes -> res notif A) (un : A -> N * bytes).

Lemma tlv_loop_rt : forall xs f,
  (forall x, In x xs -> item (un x) = Ok x) -> xs <> [] ->
  (length (flat_map (fun x => tlv_enc (un x)) xs) < f)%nat ->
  tlv_loop item f (flat_map (fun x => tlv_enc (un x)) xs) = Ok xs.
Proof.
  induction xs as [|x xs IH]; intros f Hi Hne Hf; [congruence|]. destruct f as [|f]; [lia|].
  cbn [flat_map] in *. set (rest := flat_map _ xs) in *.
  pose proof (Hi x (in_eq _ _)) as Hx. destruct (un x) as [t v].
  cbn [tlv_enc fst snd app tlv_loop length] in *.
  rewrite blen_app, take_app_exact, drop_app_exact, Hx. replace (blen v <=? blen v + blen rest) with true by lia.
  cbn [rbind]. destruct xs as [|x' xs']; [reflexivity|].
  rewrite app_length in Hf. rewrite IH; [|intros; apply Hi, in_cons; assumption|discriminate|lia].
  subst rest. cbn [flat_map tlv_enc app]. rewrite blen_cons. replace (1 + _ =? 0) with false by lia. reflexivity.
Qed.

(* R and un describe what item returns on a representable TLV, Q what it refuses; the empty field,
   which tlv_walk accepts and the loop refuses, is the case b = [] *)
Lemma tlv_loop_spec (R : A -> bool) (Q : N * bytes -> notif -> Prop) :
  (forall tv, tlv_repr tv = true ->
     match item tv with Ok x => R x = true /\ un x = tv | Err n => Q tv n | _ => False end) ->
  forall f b, wf_bytes b = true -> (length b < f)%nat ->
  match tlv_loop item f b with
  | Ok xs => xs <> [] /\ forallb R xs = true /\ flat_map (fun x => tlv_enc (un x)) xs = b
  | Err n => (n = open_err 0 [] /\ (b = [] \/ snd (tlv_walk f b) = false))
             \/ exists tv, In tv (fst (tlv_walk f b)) /\ Q tv n
  | _ => False
  end.
Proof.
  intros Hi. induction f as [|f IH]; intros b Hw Hf; [lia|].
  destruct b as [|t [|l r]]; [left; auto|left; auto|]. cbn [tlv_loop]. rewrite tlv_walk_cons.
  destruct (l <=? blen r) eqn:Hl; [|left; auto]. cbn [fst snd].
  apply wf_bytes_cons_iff in Hw as [Ht Hw]. apply wf_bytes_cons_iff in Hw as [Hl' Hr].
  assert (Hrepr : tlv_repr (t, take l r) = true).
  { unfold tlv_repr. cbn [fst snd]. rewrite wf_bytes_take, blen_take by (assumption || lia). lia. }
  specialize (Hi _ Hrepr).
  destruct (item (t, take l r)) as [x|n| |]; cbn [rbind]; [|right; exists (t, take l r); split; [apply in_eq|assumption]|assumption..].
  destruct Hi as [Hx Hu].
  assert (Henc : tlv_enc (un x) ++ drop l r = t :: l :: r).
  { rewrite Hu. unfold tlv_enc. cbn [fst snd app]. rewrite blen_take, take_drop by lia. reflexivity. }
  destruct (blen (drop l r) =? 0) eqn:E0.
  - apply N.eqb_eq, blen_0 in E0. rewrite E0, app_nil_r in Henc.
    cbn [forallb flat_map]. rewrite Hx, app_nil_r. repeat split; [discriminate|assumption].
  - cbn [length] in Hf. pose proof (drop_length l r).
    specialize (IH (drop l r) (wf_bytes_drop l r Hr) ltac:(lia)).
    destruct (tlv_loop item f (drop l r)) as [xs|n| |]; cbn [rbind]; [| |assumption..].
    + destruct IH as (_ & Hall & Hxs). cbn [forallb flat_map]. rewrite Hx, Hall, Hxs.
      repeat split; [discriminate|assumption].
    + destruct IH as [[-> [E|E]]|(tv & Hin & Hq)].
      * rewrite E in E0. discriminate.
      * left. auto.
      * right. exists tv. split; [apply in_cons|]; assumption.
Qed.
End TlvLoop.

(* the TLVs of a capability and of a capabilities parameter: tlv_enc (cap_tlv c) is spec_cap_enc c and
   tlv_enc (param_tlv cs) is spec_param_enc cs, by computation *)
Definition cap_tlv (c : cap) : N * bytes := (cap_code c, cap_val c).
Definition param_tlv (cs : list cap) : N * bytes := (2, spec_caps_enc cs).

Definition cap_item (tv : N * bytes) : res notif cap := Ok (mkCap (fst tv) (snd tv)).

Lemma caps_decode_tlv : forall f b, blen b < 256 -> caps_decode f b = tlv_loop cap_item f b.
Proof.
  induction f as [|f IH]; intros b Hb; [reflexivity|].
  destruct b as [|code [|len r]]; [reflexivity|reflexivity|].
  cbn [caps_decode tlv_loop]. rewrite tlv_step by assumption.
  destruct (len <=? blen r); [|reflexivity]. rewrite !blen_cons in Hb.
  rewrite IH by (rewrite blen_drop; lia). reflexivity.
Qed.

Lemma param_repr_iff cs :
  param_repr cs = true <->
  cs <> [] /\ forallb cap_repr cs = true /\ blen (spec_caps_enc cs) <= 255.
Proof.
  unfold param_repr. rewrite !andb_true_iff, N.leb_le, negb_true_iff, Nat.eqb_neq, length_zero_iff_nil. tauto.
Qed.

Definition param_item (tv : N * bytes) : res notif (list cap) :=
  if fst tv =? c_capabilityOptionalParamType then caps_decode (S (length (snd tv))) (snd tv)
  else Err (open_err c_NOTIF_SUBCODE_UNSUPPORTED_OPTIONAL_PARAM []).

Lemma params_decode_tlv : forall f b, blen b < 256 -> params_decode f b = tlv_loop param_item f b.
Proof.
  induction f as [|f IH]; intros b Hb; [reflexivity|].
  destruct b as [|code [|len r]]; [reflexivity|reflexivity|].
  cbn [params_decode tlv_loop]. rewrite tlv_step by assumption.
  destruct (len <=? blen r); [|reflexivity]. rewrite !blen_cons in Hb.
  rewrite IH by (rewrite blen_drop; lia).
  unfold param_item. cbn [fst snd]. destruct (code =? c_capabilityOptionalParamType); reflexivity.
Qed.

Lemma param_item_rt cs : param_repr cs = true -> param_item (param_tlv cs) = Ok cs.
Proof.
  intros (Hne & _ & Hl)%param_repr_iff. unfold param_item, param_tlv. cbn [fst snd].
  change (2 =? c_capabilityOptionalParamType) with true. cbn iota. rewrite caps_decode_tlv by lia.
  apply (tlv_loop_rt cap_item cap_tlv); [|assumption|apply Nat.lt_succ_diag_r].
  intros [c v] _. reflexivity.
Qed.

(* a refused parameter has one of the faults that OpenSpec.fault_inconsistent and
   fault_unknown_param look for *)
Lemma param_item_spec tv :
  tlv_repr tv = true ->
  match param_item tv with
  | Ok cs => param_repr cs = true /\ param_tlv cs = tv
  | Err n =>
      (n = open_err 0 []
       /\ (fst tv =? 2) && (let (cs, ok) := tlvs (snd tv) in negb ok || is_nil cs) = true)
      \/ (n = open_err 4 [] /\ negb (fst tv =? 2) = true)
  | _ => False
  end.
Proof.
  destruct tv as [t v]. unfold tlv_repr, param_item, tlvs. cbn [fst snd]. intros Hr.
  apply andb_true_iff in Hr as [Hr Hl]. apply andb_true_iff in Hr as [_ Hw].
  change c_capabilityOptionalParamType with 2.
  destruct (t =? 2) eqn:Et; [|right; split; reflexivity]. apply N.eqb_eq in Et as ->.
  rewrite caps_decode_tlv by lia.
  pose proof (tlv_loop_spec cap_item cap_tlv cap_repr (fun _ _ => False)
                ltac:(intros [c w] Hc; split; [exact Hc|reflexivity]) _ v Hw (Nat.lt_succ_diag_r _)) as H.
  destruct (tlv_loop cap_item _ v) as [cs|n| |]; [| |assumption..].
  - destruct H as (Hne & Hall & <-). split; [|reflexivity].
    apply param_repr_iff. repeat split; [assumption..|apply N.leb_le, Hl].
  - destruct H as [[-> H]|(_ & _ & [])]. left. split; [reflexivity|].
    destruct H as [->|H]; [reflexivity|]. destruct (tlv_walk _ v). cbn [snd] in H. rewrite H. reflexivity.
Qed.

Lemma open_repr_iff o :
  open_repr o = true <->
  o_ver o < 256 /\ o_asn o < 65536 /\ o_hold o < 65536 /\ o_id o < 4294967296
  /\ o_params o <> [] /\ forallb param_repr (o_params o) = true
  /\ blen (spec_params_enc (o_params o)) <= 255.
Proof.
  unfold open_repr.
  rewrite !andb_true_iff, !N.ltb_lt, N.leb_le, negb_true_iff, Nat.eqb_neq, length_zero_iff_nil. tauto.
Qed.

Lemma open_body_fits o : open_repr o = true -> blen (spec_open_body o) <= 4077.
Proof.
  intros (_ & _ & _ & _ & _ & _ & Hl)%open_repr_iff.
  unfold spec_open_body, be16, be32. rewrite !blen_app, !blen_cons, blen_nil. lia.
Qed.

Lemma open_decode_cons v a1 a0 h1 h0 i3 i2 i1 i0 ol pb :
  open_decode (v :: a1 :: a0 :: h1 :: h0 :: i3 :: i2 :: i1 :: i0 :: ol :: pb) =
  if ol =? blen pb then
    do ps <- params_decode (S (length pb)) pb;
    Ok (mkOpen v (get16 a1 a0) (get16 h1 h0) (get32 i3 i2 i1 i0) ps)
  else Err (open_err 0 []).
Proof.
  cbn [open_decode]. rewrite !blen_cons. replace (1 + _ - 10) with (blen pb) by lia.
  destruct (ol =? blen pb); reflexivity.
Qed.

Theorem open_roundtrip o :
  open_repr o = true -> open_decode (spec_open_body o) = Ok o.
Proof.
  intros (Hv & Ha & Hh & Hi & Hne & Hall & Hlen)%open_repr_iff.
  assert (Hp : tlv_loop param_item (S (length (spec_params_enc (o_params o)))) (spec_params_enc (o_params o))
               = Ok (o_params o)).
  { apply (tlv_loop_rt param_item param_tlv); [|assumption|apply Nat.lt_succ_diag_r].
    intros cs Hin. apply param_item_rt. rewrite forallb_forall in Hall. auto. }
  unfold spec_open_body, be16, be32. cbn [app].
  rewrite open_decode_cons, N.eqb_refl, params_decode_tlv, Hp by lia. cbn [rbind].
  rewrite !put16_get16, put32_get32 by assumption. destruct o; reflexivity.
Qed.

(* what open_decode does on well-formed bytes: what it accepts is the canonical encoding of a
   representable value (open_roundtrip is the converse), and a refusal (C02) names a fault that
   the body actually has *)
Lemma open_decode_spec b :
  wf_bytes b = true ->
  match open_decode b with
  | Ok o => open_repr o = true /\ spec_open_body o = b
  | Err n =>
      (blen b < 10 /\ n = mkNotif 1 2 b)
      \/ (10 <= blen b
          /\ ((n = open_err 0 [] /\ fault_inconsistent b = true)
              \/ (n = open_err 4 [] /\ fault_unknown_param b = true)))
  | _ => False
  end.
Proof.
  intros Hw. destruct b as [|v [|a1 [|a0 [|h1 [|h0 [|i3 [|i2 [|i1 [|i0 [|ol pb]]]]]]]]]];
    try (left; split; [rewrite ?blen_cons, blen_nil; lia|reflexivity]).
  rewrite open_decode_cons. unfold fault_inconsistent, fault_unknown_param, tlvs.
  assert (Hlen : 10 <= blen (v :: a1 :: a0 :: h1 :: h0 :: i3 :: i2 :: i1 :: i0 :: ol :: pb))
    by (rewrite !blen_cons; lia).
  do 10 (apply wf_bytes_cons_iff in Hw as [? Hw]).
  destruct (ol =? blen pb) eqn:Eol; cbn [negb orb].
  2:{ right. split; [assumption|]. left. split; [reflexivity|]. destruct (tlv_walk _ pb). reflexivity. }
  apply N.eqb_eq in Eol as ->. rewrite params_decode_tlv by lia.
  pose proof (tlv_loop_spec param_item param_tlv param_repr _ param_item_spec _ pb Hw (Nat.lt_succ_diag_r _)) as Hs.
  destruct (tlv_loop param_item _ pb) as [ps|n| |]; cbn [rbind]; [| |assumption..].
  - destruct Hs as (Pne & Pall & Hb). change (spec_params_enc ps = pb) in Hb. subst pb. split.
    + apply open_repr_iff. cbn [o_ver o_asn o_hold o_id o_params].
      pose proof (get16_lt a1 a0). pose proof (get16_lt h1 h0). pose proof (get32_lt i3 i2 i1 i0).
      repeat split; auto; lia.
    + unfold spec_open_body; cbn [o_ver o_asn o_hold o_id o_params].
      rewrite !be16_get16, be32_get32 by assumption. reflexivity.
  - right. split; [assumption|]. destruct Hs as [[-> Hs]|(tv & Hin & Hq)].
    + left. split; [reflexivity|]. destruct Hs as [-> | Hs]; [reflexivity|].
      destruct (tlv_walk _ pb). cbn [snd] in Hs. rewrite Hs. reflexivity.
    + destruct (tlv_walk _ pb) as [ts ok]. cbn [fst] in Hin. destruct Hq as [[-> Hq]|[-> Hq]].
      * left. split; [reflexivity|]. rewrite orb_true_iff, existsb_exists. right. exists tv. auto.
      * right. split; [reflexivity|]. apply existsb_exists. exists tv. auto.
Qed.

Theorem open_decode_inverse b o :
  wf_bytes b = true -> open_decode b = Ok o ->
  open_repr o = true /\ spec_open_body o = b.
Proof. intros Hw H. pose proof (open_decode_spec b Hw) as Hs. rewrite H in Hs. exact Hs. Qed.

Theorem open_decode_total b :
  wf_bytes b = true -> open_decode b <> Panic /\ open_decode b <> OutOfFuel.
Proof. intros Hw. eapply spec_returns, open_decode_spec, Hw. Qed.

(* The encoders are the specification encoders exactly where the value is representable, and
   refuse everything else (capability codes and bytes being octets). *)
Lemma cap_encode_spec c : cap_repr c = true -> cap_encode c = spec_cap_enc c.
Proof.
  unfold cap_repr, cap_encode, spec_cap_enc. intros H.
  apply andb_true_iff in H as [H Hl]. rewrite u8_small by lia. reflexivity.
Qed.

Lemma cap_encode_as4 ras : ras < 4294967296 -> cap_encode (four_octet_cap ras) = 65 :: 4 :: be32 ras.
Proof.
  intros H. unfold cap_encode, four_octet_cap, c_CAP_FOUR_OCTET_AS; cbn [cap_code cap_val].
  rewrite put32_be32 by assumption. reflexivity.
Qed.

Lemma cap_repr_wf c : cap_wf c = true -> cap_repr c = negb (255 <? blen (cap_val c)).
Proof. unfold cap_repr, cap_wf. intros ->. lia. Qed.

Lemma caps_repr_wf cs :
  forallb cap_wf cs = true -> forallb cap_repr cs = negb (existsb (fun c => 255 <? blen (cap_val c)) cs).
Proof.
  induction cs as [|c cs IH]; intros H; [reflexivity|].
  cbn [forallb existsb] in *. apply andb_true_iff in H as [Hc H].
  rewrite IH, cap_repr_wf, negb_orb by assumption. reflexivity.
Qed.

Lemma param_encode_eq cs :
  forallb cap_wf cs = true ->
  param_encode cs = if param_repr cs then Some (spec_param_enc cs) else None.
Proof.
  intros H%caps_repr_wf. unfold param_encode, param_repr.
  destruct cs as [|c cs']; [reflexivity|]. set (cs := c :: cs') in *. cbn [length Nat.eqb negb andb].
  rewrite H. destruct (existsb _ cs); [reflexivity|].
  rewrite (flat_map_forallb _ _ _ _ cap_encode_spec H), N.leb_antisym.
  unfold spec_param_enc, spec_caps_enc. destruct (255 <? _) eqn:E; [reflexivity|].
  rewrite u8_small by lia. reflexivity.
Qed.

Lemma params_encode_eq ps :
  forallb (forallb cap_wf) ps = true ->
  params_encode ps = if forallb param_repr ps then Some (spec_params_enc ps) else None.
Proof.
  induction ps as [|p ps IH]; intros H; [reflexivity|].
  cbn [forallb] in H. apply andb_true_iff in H as [Hp H].
  cbn [params_encode forallb]. rewrite param_encode_eq, IH by assumption.
  destruct (param_repr p), (forallb param_repr ps); reflexivity.
Qed.

Lemma open_body_eq o :
  o_ver o < 256 -> o_asn o < 65536 -> o_hold o < 65536 -> o_id o < 4294967296 -> o_params o <> [] ->
  forallb (forallb cap_wf) (o_params o) = true ->
  open_body o = if open_repr o then Some (spec_open_body o) else None.
Proof.
  intros Hv Ha Hh Hi Hne Hw. unfold open_body, open_repr. rewrite params_encode_eq by assumption.
  replace (length (o_params o) =? 0)%nat with false by (destruct (o_params o); [congruence|reflexivity]).
  replace ((o_ver o <? 256) && (o_asn o <? 65536) && (o_hold o <? 65536) && (o_id o <? 4294967296)) with true by lia.
  cbn [negb andb]. destruct (forallb param_repr (o_params o)); [|reflexivity]. rewrite N.leb_antisym.
  destruct (255 <? blen (spec_params_enc (o_params o))) eqn:E; [reflexivity|].
  unfold spec_open_body. rewrite u8_small, !put16_be16, put32_be32 by lia. reflexivity.
Qed.

Lemma param_repr_wf cs : param_repr cs = true -> forallb cap_wf cs = true.
Proof.
  intros (_ & H & _)%param_repr_iff. revert H. apply forallb_impl.
  unfold cap_repr, cap_wf. intros c H. apply andb_true_iff in H as [H _]. exact H.
Qed.

Theorem open_body_spec o :
  open_repr o = true -> open_body o = Some (spec_open_body o).
Proof.
  intros H. pose proof H as (Hv & Ha & Hh & Hi & Hne & Hall & _)%open_repr_iff.
  rewrite open_body_eq, H by (try assumption; revert Hall; apply forallb_impl, param_repr_wf). reflexivity.
Qed.

Lemma open_encode_spec o :
  open_repr o = true -> open_encode o = Some (spec_frame_enc 1 (spec_open_body o)).
Proof.
  intros H. unfold open_encode. rewrite open_body_spec by assumption.
  rewrite prepend_header_spec by apply open_body_fits, H. reflexivity.
Qed.

(* non-vacuity: a concrete representable OPEN and NOTIFICATION *)
Example open_repr_example :
  open_repr (mkOpen 4 65000 90 167772161
              [[mkCap 65 [0; 0; 253; 232]; mkCap 1 [0; 1; 0; 1]]; [mkCap 2 []]]) = true.
Proof. vm_compute. reflexivity. Qed.
Example notif_repr_example : notif_repr (mkNotif 5 1 [4]) = true.
Proof. vm_compute. reflexivity. Qed.
