(* TimedWTie.v — the runner behind op 62 (Dispatch.xrun_auto: the connection with its keep-alive manager, every reset token
   served at once) is a conservative extension of the runner behind op 60 (Conn.conn_run_auto): on every input sequence
   without timer expiries the two perform the same actions in the same order, except that op 62 has additional keep-alive
   arm operations; and when the plugin writes nothing inside OnEstablished the action lists are equal. *)
From Verif Require Import Base Packet Conn Timed TimedW Dispatch ConnProofs TimedWProofs.

Definition is_armka (a : caction) : bool := match a with AArmKA _ => true | _ => false end.
Definition not_armka (a : caction) : bool := negb (is_armka a).
Definition no_timer (i : cinput) : bool := match i with IHold | IKA => false | _ => true end.

Lemma xstep_no_timer cf pl xs i :
  no_timer i = true ->
  let (st', acts) := conn_step cf pl (ts_conn (xs_t xs)) i in
  exists xs1, xstep cf pl xs 0 (XConn i) = Some (xs1, acts) /\ ts_conn (xs_t xs1) = st'
              /\ (xs_pending xs = [] -> count_upd acts = O -> xs_pending xs1 = []).
Proof.
  intros Hn. unfold xstep, tstep. destruct i; try discriminate Hn; cbn [negb].
  all: destruct (conn_step _ _ _ _) as [c' acts]; destruct (apply_actions _ _ _ _ acts) as [[h k] lk].
  (* the tokens of the step's UPDATEs join the waiting ones if the session is up; otherwise none waits *)
  all: destruct (est _); eexists; (split; [reflexivity|]); (split; [reflexivity|]); cbn [xs_pending];
    intros Hp Hu; rewrite ?Hp, ?Hu; reflexivity.
Qed.

Lemma serve_all_spec cf pl : forall fuel xs xs' a,
  serve_all fuel cf pl xs = (xs', a) ->
  ts_conn (xs_t xs') = ts_conn (xs_t xs) /\ filter not_armka a = [] /\ (xs_pending xs = [] -> xs' = xs /\ a = []).
Proof.
  induction fuel as [|f IH]; intros xs xs' a H; cbn [serve_all] in H.
  - injection H as <- <-. repeat split.
  - destruct (xstep cf pl xs 0 (XReset 0)) as [[xs1 a1]|] eqn:Es; [|injection H as <- <-; repeat split].
    destruct (serve_all f cf pl xs1) as [xs2 a2] eqn:E2. injection H as <- <-.
    destruct (IH _ _ _ E2) as (Hc & Hf & _). apply xstep_reset in Es as (Hp & Hc1 & _ & Ha). cbv zeta in Ha.
    split; [congruence|]. split; [|contradiction]. rewrite filter_app, Hf.
    destruct (_ =? 0); destruct Ha as [-> _]; reflexivity.
Qed.

(* a served step: the connection's own step, then keep-alive arm operations only, and none when no token waits *)
Lemma xstep_served_spec cf pl xs i xs' a :
  no_timer i = true -> xstep_served cf pl xs i = (xs', a) ->
  let (st', acts) := conn_step cf pl (ts_conn (xs_t xs)) i in
  ts_conn (xs_t xs') = st' /\
  exists a2, a = acts ++ a2 /\ filter not_armka a2 = []
             /\ (xs_pending xs = [] -> count_upd acts = O -> a2 = [] /\ xs_pending xs' = []).
Proof.
  intros Hn H. unfold xstep_served in H. pose proof (xstep_no_timer cf pl xs i Hn) as H1.
  destruct (conn_step cf pl (ts_conn (xs_t xs)) i) as [st' acts]. destruct H1 as (xs1 & E1 & Hc1 & Hp1).
  rewrite E1 in H. destruct (serve_all _ cf pl xs1) as [xs2 a2] eqn:E2. injection H as <- <-.
  destruct (serve_all_spec _ _ _ _ _ _ E2) as (Hc2 & Hf & Hz).
  split; [congruence|]. exists a2. split; [reflexivity|]. split; [exact Hf|].
  intros Hp Hu. specialize (Hp1 Hp Hu). destruct (Hz Hp1) as [-> ->]. split; [reflexivity|exact Hp1].
Qed.

(* The two runners move in lockstep.  If every served step of the extended system does to the connection what conn_step
   does, with action lists related by R, then so do whole runs; I is an invariant of the extended state that the step may
   need, and R has to be kept by concatenation. *)
Lemma xrun_auto_sim cf pl (I : xstate -> Prop) (R : list caction -> list caction -> Prop) :
  R [] [] -> (forall a b a' b', R a b -> R a' b' -> R (a ++ a') (b ++ b')) ->
  (forall xs i xs' a, I xs -> no_timer i = true -> xstep_served cf pl xs i = (xs', a) ->
     I xs' /\ ts_conn (xs_t xs') = fst (conn_step cf pl (ts_conn (xs_t xs)) i)
     /\ R a (snd (conn_step cf pl (ts_conn (xs_t xs)) i))) ->
  forall ins xs, I xs -> forallb no_timer ins = true ->
    ts_conn (xs_t (fst (xrun_auto cf pl xs ins))) = fst (conn_run_auto cf pl (ts_conn (xs_t xs)) ins)
    /\ R (snd (xrun_auto cf pl xs ins)) (snd (conn_run_auto cf pl (ts_conn (xs_t xs)) ins)).
Proof.
  intros R0 Rapp Hstep. induction ins as [|i r IH]; intros xs Hx Hn; cbn [xrun_auto conn_run_auto fst snd]; [auto|].
  cbn [forallb] in Hn. apply andb_true_iff in Hn as [Hi Hr].
  destruct (xstep_served cf pl xs i) as [xs1 a1] eqn:E1.
  destruct (Hstep _ _ _ _ Hx Hi E1) as (Hx1 & Hc1 & Ha1).
  destruct (conn_step cf pl (ts_conn (xs_t xs)) i) as [st1 b1]. cbn [fst snd] in Hc1, Ha1. rewrite Hc1.
  (* the approval, where one is awaited, is one more step of the same kind *)
  set (ax := match c_phase st1 with PWaitOC | PWaitEst => xstep_served cf pl xs1 IApprove | _ => (xs1, []) end).
  set (ac := match c_phase st1 with PWaitOC | PWaitEst => conn_step cf pl st1 IApprove | _ => (st1, []) end).
  assert (HA : I (fst ax) /\ ts_conn (xs_t (fst ax)) = fst ac /\ R (snd ax) (snd ac)).
  { subst ax ac. destruct (c_phase st1); cbn [fst snd]; auto;
      destruct (xstep_served cf pl xs1 IApprove) as [xsA aA] eqn:EA; rewrite <- Hc1; exact (Hstep xs1 IApprove xsA aA Hx1 eq_refl EA). }
  destruct ax as [xsA aA], ac as [stA bA]. cbn [fst snd] in HA. destruct HA as (HxA & HcA & HaA).
  specialize (IH xsA HxA Hr). rewrite HcA in IH.
  destruct (xrun_auto cf pl xsA r) as [xs2 a2], (conn_run_auto cf pl stA r) as [st2 b2]. cbn [fst snd] in *.
  split; [apply IH|]. apply Rapp; [exact Ha1|apply Rapp; [exact HaA|apply IH]].
Qed.

(* when the plugin writes nothing inside OnEstablished no step of the connection writes an UPDATE: the header's type
   octet tells *)
Lemma nth18_header m t : nth 18 (prepend_header m t) 0 = t.
Proof. unfold prepend_header, marker, put16. cbn. reflexivity. Qed.

Lemma count_upd_zero cf pl st i : pl_est_writes pl = [] -> count_upd (snd (conn_step cf pl st i)) = O.
Proof.
  intros He. unfold count_upd.
  destruct (conn_step_shape cf pl st i)
    as [st i _|ph h k i cb k' d e _ Hc _|ph h k _|h k o|h k|h k|h k b _|h k|h k|ph h k _ _];
    cbn [snd]; rewrite ?He; unfold reply, restart_hold, notif_encode, keepalive_encode.
  2: destruct Hc, e; try destruct ph.
  all: try destruct (_ =? 0); cbn [filter app teardown map is_upd_write]; rewrite ?nth18_header; reflexivity.
Qed.
