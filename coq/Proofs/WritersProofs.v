(* WritersProofs.v — C04 for every interleaving of writers, FSM writes and session ends. *)
From Verif Require Import Base PacketSpec Conn Writers PacketProofs FrameProofs.

Lemma wrun_app s es1 es2 :
  wrun s (es1 ++ es2) =
  let (s1, o1) := wrun s es1 in let (s2, o2) := wrun s1 es2 in (s2, o1 ++ o2).
Proof.
  revert s. induction es1 as [|e r IH]; intros s; cbn [wrun app].
  - destruct (wrun s es2). reflexivity.
  - destruct (wstep s e) as [s1 o]. rewrite IH. destruct (wrun s1 r) as [s2 os]. destruct (wrun s2 es2). reflexivity.
Qed.

Theorem writer_exactly_once : forall es s c w,
  from_writer (fst (wrun s es)) c w = from_writer s c w ++ map update_frame (acked es (snd (wrun s es)) c w).
Proof.
  induction es as [|e r IH]; intros s c w; cbn [wrun fst snd acked map]; [rewrite app_nil_r; reflexivity|].
  destruct (wstep s e) as [s1 o] eqn:Es. specialize (IH s1 c w).
  destruct (wrun s1 r) as [s2 os]. cbn [fst snd] in *. rewrite IH. clear IH.
  destruct e as [c' w' b|c' f|c']; cbn [wstep] in Es.
  - destruct (ended s c'); injection Es as <- <-; [reflexivity|].
    unfold from_writer at 1. cbn [w_wire]. rewrite flat_map_app. cbn [flat_map].
    fold (from_writer s c w). destruct (Nat.eqb c' c && Nat.eqb w' w); cbn [map app]; rewrite ?app_nil_r, <- ?app_assoc; reflexivity.
  - destruct (ended s c'); injection Es as <- <-; [reflexivity|].
    unfold from_writer at 1. cbn [w_wire]. rewrite flat_map_app. cbn [flat_map]. rewrite app_nil_r. reflexivity.
  - injection Es as <- <-. reflexivity.
Qed.

Lemma ended_mono s e c : ended s c = true -> ended (fst (wstep s e)) c = true.
Proof.
  intros H. destruct e as [c' w' b|c' f|c']; cbn [wstep]; try (destruct (ended s c'); exact H).
  unfold ended in *. cbn [fst w_ended existsb]. rewrite H. apply orb_true_r.
Qed.

Lemma wrun_inv (P : wstate -> Prop) : forall es,
  (forall s e, In e es -> P s -> P (fst (wstep s e))) -> forall s, P s -> P (fst (wrun s es)).
Proof.
  induction es as [|e r IH]; intros Hstep s Hs; [exact Hs|]. cbn [wrun].
  pose proof (Hstep s e (or_introl eq_refl) Hs) as H1. destruct (wstep s e) as [s1 o].
  specialize (IH (fun s e Hin => Hstep s e (or_intror Hin)) s1 H1). destruct (wrun s1 r). exact IH.
Qed.

Theorem ended_forever : forall es s c, ended s c = true -> ended (fst (wrun s es)) c = true.
Proof. intros es s c. apply (wrun_inv (fun s => ended s c = true)). intros s' e _. apply ended_mono. Qed.

(* what is asked of an event: a writer's body fits a frame, a frame of the FSM's own is well formed *)
Definition wevent_ok (e : wevent) : Prop :=
  match e with
  | WWrite _ _ b => blen b <= 4077
  | WFsm _ f => wf_frame f
  | WEnd _ => True
  end.

Lemma frames_of_snoc s x en c :
  frames_of (mkW (w_wire s ++ [x]) en) c = frames_of s c ++ (if Nat.eqb (fst (fst x)) c then [snd x] else []).
Proof. unfold frames_of. cbn [w_wire]. rewrite flat_map_app. cbn [flat_map]. rewrite app_nil_r. reflexivity. Qed.

(* one event appends at most one frame to a connection, and none to one that has ended *)
Lemma frames_of_step s e c :
  frames_of (fst (wstep s e)) c = frames_of s c \/
  exists f, frames_of (fst (wstep s e)) c = frames_of s c ++ [f] /\ ended s c = false /\ (wevent_ok e -> wf_frame f).
Proof.
  destruct e as [c' w b|c' f|c']; cbn [wstep]; [| |left; reflexivity].
  (* a write, by a writer or by the FSM: refused if its connection has ended, else appended to the wire *)
  all: destruct (ended s c') eqn:Ee; [left; reflexivity|]; cbn [fst]; rewrite frames_of_snoc; cbn [fst snd];
    destruct (Nat.eqb_spec c' c) as [->|_]; [right|left; apply app_nil_r].
  - exists (update_frame b). auto using update_frame_wf.
  - exists f. auto.
Qed.

Theorem wire_frames_wellformed : forall es s c,
  Forall wevent_ok es -> Forall wf_frame (frames_of s c) ->
  Forall wf_frame (frames_of (fst (wrun s es)) c).
Proof.
  intros es s c Hes. apply (wrun_inv (fun s => Forall wf_frame (frames_of s c))). intros s' e Hin Hs.
  destruct (frames_of_step s' e c) as [->|(f & -> & _ & Hf)]; [exact Hs|].
  apply Forall_app. split; [exact Hs|]. constructor; [|constructor]. apply Hf. eapply Forall_forall; eassumption.
Qed.

Lemma wire_is_frames s c : wire_of s c = concat (frames_of s c).
Proof.
  unfold wire_of, frames_of. induction (w_wire s) as [|x l IH]; cbn [flat_map]; [reflexivity|].
  cbv beta. rewrite concat_app, IH.
  destruct x as [[c' w'] f]. cbn [fst snd]. destruct (Nat.eqb c' c); cbn [concat app]; rewrite ?app_nil_r; reflexivity.
Qed.

(* ... so the remote's strict stream parser recovers exactly the frames that were appended, in order *)
Definition frame_tb (f : bytes) : N * bytes :=
  match spec_frame_parse f with Some tb => tb | None => (0, []) end.

Lemma wf_frame_tb f :
  wf_frame f ->
  f = spec_frame_enc (fst (frame_tb f)) (snd (frame_tb f))
  /\ blen (snd (frame_tb f)) <= 4077 /\ known_type (fst (frame_tb f)) = true.
Proof.
  intros (t & body & Hp & He). unfold frame_tb. rewrite Hp. cbn [fst snd]. split; [exact He|].
  unfold spec_frame_parse in Hp.
  destruct ((19 <=? blen f) && (blen f <=? 4096) && beqb (firstn 16 f) (repeat 255 16)) eqn:E; [|discriminate].
  destruct (skipn 16 f) as [|l1 [|l0 [|t' body']]]; try discriminate.
  destruct ((l1 * 256 + l0 =? blen f) && known_type t') eqn:E2; [|discriminate].
  injection Hp as -> ->. rewrite He, blen_frame in E. split; [lia|]. apply andb_true_iff in E2. apply E2.
Qed.

Lemma wf_frames_parse l :
  Forall wf_frame l -> spec_stream_parse (S (length l)) (concat l) = Some (map frame_tb l).
Proof.
  intros Hwf.
  replace (concat l) with (flat_map (fun tb => spec_frame_enc (fst tb) (snd tb)) (map frame_tb l)).
  - apply frames_self_delimiting; [|rewrite map_length; lia].
    apply Forall_map. revert Hwf. apply Forall_impl. intros f Hf. apply (wf_frame_tb f Hf).
  - induction Hwf as [|f l Hf Hl IH]; cbn [concat map flat_map]; [reflexivity|].
    rewrite IH. destruct (wf_frame_tb f Hf) as [<- _]. reflexivity.
Qed.
