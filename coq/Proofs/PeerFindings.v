(* PeerFindings.v — the statement of C12 that is false of the faithful manager model (finding D14), its
   witness trace, and where that run ends.  The refutation itself stands in Props/C12.v. *)
From Coq Require Import List.
From Verif Require Import Closure Peer PeerProofs.
Import ListNotations.

(* the full statement C12 asks for: whenever an FSM has returned a damping error (it has sent
   or received a NOTIFICATION other than Cease) the report reaches the manager, i.e. the FSM
   never leaves its error select through closeCh while the peer itself is not being shut down *)
Definition report_lost (s : sys) (i : dir) : bool :=
  match get (s_fsm s) i with
  | Some f => match f_pc f with FErrOffer _ _ EDamp => f_closed f && negb (s_pclosed s) | _ => false end
  | None => false
  end.
Definition every_protocol_error_reported : Prop :=
  forall p d tr s i, run sys label step (init p d) tr = Some s -> report_lost s i = false.

Definition reply3 (i : dir) : list label := [LMRecvTrans i; LMOp; LMReply i].
Definition d14_trace : list label :=
  reply3 DOut ++ [LFRun DOut (mkO Connect ENil false)] ++ reply3 DOut ++ [LFRun DOut (mkO OpenSent ENil false)]
  ++ reply3 DOut                                   (* outbound FSM in OpenSent *)
  ++ [LMInConn] ++ reply3 DIn ++ [LFRun DIn (mkO OpenSent ENil false)] ++ reply3 DIn
  ++ [LFRun DIn (mkO OpenConfirm ENil false)] ++ reply3 DIn    (* inbound FSM in OpenConfirm *)
  ++ [LFRun DOut (mkO Idle EDamp false)]           (* outbound: bad OPEN, NOTIFICATION sent, error to report *)
  ++ [LFRun DIn (mkO Established ENil false); LMRecvTrans DIn; LMOp; LMOp].  (* manager stops the outbound FSM *)
Definition d14_tail : list label :=
  [LFClose DOut; LFClose DOut; LFExit DOut; LMWaitDone DOut; LMReply DIn].

(* what the loss means: the run continues to a quiescent state in which the inbound session is
   Established, no hold-down is in force and the manager never received the error *)
Theorem error_report_refuted_outcome :
  exists s, run sys label step (init false true) (d14_trace ++ d14_tail) = Some s
            /\ at_loop s = true /\ s_hold s = false /\ s_timer s = false
            /\ fst (s_fsm s) = None /\ in_est (snd (s_fsm s)) = true
            /\ existsb (fun l => match l with LMRecvErr _ => true | _ => false end) (d14_trace ++ d14_tail) = false.
Proof. eexists. vm_compute. repeat split. Qed.
