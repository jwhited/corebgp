(* ErrorProofs.v — C17: UpdateNotificationFromErr against its specification
   (first leaf of the strongest class in pre-order).  Both errors.As and the walk of
   UpdateNotificationFromErr see an error tree only through its leaves. *)
From Verif Require Import Base Errors UpdateSpec.

(* induction over error trees, with the hypothesis for every member of a join *)
Lemma err_ind2 (P : err -> Prop) :
  (forall n, P (ENotif n)) -> (forall c n, P (ETaw c n)) -> (forall c n, P (EDiscard c n)) ->
  (forall n, P (EUpd n)) -> P EOther -> (forall l, Forall P l -> P (EJoin l)) -> (forall e, P e -> P (EWrap e)) ->
  forall e, P e.
Proof.
  intros Hn Ht Hd Hu Ho Hj Hw. fix IH 1.
  intros [n|c n|c n|n| |l|e]; [apply Hn|apply Ht|apply Hd|apply Hu|exact Ho| |apply Hw, IH].
  apply Hj. induction l as [|x l IHl]; constructor; [apply IH|exact IHl].
Qed.

(* the local loops of leaves and has_notif over the members of a join are flat_map and existsb *)
Lemma leaves_join l : leaves (EJoin l) = flat_map leaves l.
Proof. reflexivity. Qed.

Lemma has_notif_join l : has_notif (EJoin l) = existsb has_notif l.
Proof. reflexivity. Qed.

Lemma unfe_walk_stop e a n : a_n a = Some n -> unfe_walk e a = a.
Proof. intros H. destruct e; cbn; rewrite H; reflexivity. Qed.

(* unfe_walk leaves an accumulator that holds a Notification as it is, so a plain fold does what the
   walk with its early exits does *)
Definition walk_all (l : list err) (a : unfe_acc) : unfe_acc := fold_left (fun a x => unfe_walk x a) l a.

Lemma walk_all_stop l a n : a_n a = Some n -> walk_all l a = a.
Proof.
  intros H. induction l as [|x l IH]; [reflexivity|]. cbn. rewrite (unfe_walk_stop x a n H). exact IH.
Qed.

Lemma unfe_walk_join l a : unfe_walk (EJoin l) a = walk_all l a.
Proof.
  cbn [unfe_walk]. destruct (a_n a) eqn:Ea; [symmetry; eapply walk_all_stop; exact Ea|]. clear Ea.
  revert a. induction l as [|x l IH]; intros a; [reflexivity|]. cbn [walk_all fold_left].
  destruct (a_n (unfe_walk x a)) eqn:E; [symmetry; eapply walk_all_stop; exact E|apply IH].
Qed.

Lemma has_notif_leaves : forall e, has_notif e = existsb is_notif (leaves e).
Proof.
  induction e using err_ind2; try reflexivity.
  - rewrite has_notif_join, leaves_join. induction H as [|x r Hx Hr IH]; [reflexivity|].
    cbn [existsb flat_map]. rewrite existsb_app, Hx, IH. reflexivity.
  - exact IHe.
Qed.

Lemma unfe_walk_leaves : forall e a, unfe_walk e a = walk_all (leaves e) a.
Proof.
  induction e using err_ind2; intros a; try reflexivity.
  - rewrite unfe_walk_join, leaves_join. revert a. induction H as [|x r Hx Hr IH]; intros a; [reflexivity|].
    cbn [flat_map]. unfold walk_all in *. rewrite fold_left_app, <- Hx. apply IH.
  - cbn [unfe_walk leaves]. rewrite <- IHe. destruct (a_n a) eqn:Ea; [|reflexivity].
    symmetry. eapply unfe_walk_stop. exact Ea.
Qed.

Lemma unfe_leaves x y : leaves x = leaves y -> unfe (Some x) = unfe (Some y).
Proof. intros H. unfold unfe. rewrite !unfe_walk_leaves, H. reflexivity. Qed.

Definition is_leaf (e : err) : bool := match e with EJoin _ | EWrap _ => false | _ => true end.

Lemma leaves_are_leaves : forall e, forallb is_leaf (leaves e) = true.
Proof.
  induction e using err_ind2; try reflexivity.
  - rewrite leaves_join. induction H as [|x r Hx Hr IH]; [reflexivity|].
    cbn [flat_map]. rewrite forallb_app, Hx, IH. reflexivity.
  - exact IHe.
Qed.

Definition orelse {A} (a b : option A) : option A := match a with Some _ => a | None => b end.

(* what the accumulator holds after walking a list of leaves: the first Notification if there is one;
   otherwise each class keeps what it had, or else takes the payload of its first leaf *)
Lemma walk_all_spec : forall l a,
  forallb is_leaf l = true -> a_n a = None ->
  a_n (walk_all l a) = match find is_notif l with Some (ENotif n) => Some n | _ => None end
  /\ (find is_notif l = None ->
      a_taw (walk_all l a) = orelse (a_taw a) match find is_taw l with Some (ETaw _ n) => Some n | _ => None end
      /\ a_ad (walk_all l a) = orelse (a_ad a) match find is_discard l with Some (EDiscard _ n) => Some n | _ => None end
      /\ a_ue (walk_all l a) = orelse (a_ue a) match find is_upd l with Some (EUpd n) => Some n | _ => None end).
Proof.
  induction l as [|x l IH]; intros a Hl Ha.
  - cbn. split; [exact Ha|]. intros _. destruct (a_taw a), (a_ad a), (a_ue a); repeat split; reflexivity.
  - cbn [forallb] in Hl. apply andb_true_iff in Hl as [Hx Hl].
    change (walk_all (x :: l) a) with (walk_all l (unfe_walk x a)). specialize (IH (unfe_walk x a) Hl).
    destruct x; try discriminate; cbn [unfe_walk find is_notif is_taw is_discard is_upd] in *; rewrite Ha in *.
    1: { erewrite walk_all_stop by reflexivity. split; [reflexivity|discriminate]. }
    (* the other four kinds of leaf fill at most the field of their class, if it is empty *)
    all: destruct IH as [I1 I2]; [reflexivity || exact Ha|]; split; [exact I1|]; intros Hn;
      destruct (I2 Hn) as (-> & -> & ->); cbn [a_taw a_ad a_ue];
      destruct (a_taw a), (a_ad a), (a_ue a); repeat split; reflexivity.
Qed.

Theorem unfe_spec e : unfe e = spec_unfe e.
Proof.
  destruct e as [e|]; [|reflexivity]. unfold unfe. rewrite unfe_walk_leaves.
  destruct (walk_all_spec (leaves e) (mkAcc None None None None) (leaves_are_leaves e) eq_refl) as [-> H].
  unfold spec_unfe, first_of.
  (* find p l = Some x gives p x = true, which leaves one constructor for x *)
  destruct (find is_notif (leaves e)) as [x|] eqn:E1.
  { apply find_some in E1 as [_ E1]. destruct x; try discriminate. reflexivity. }
  destruct (H eq_refl) as (-> & -> & ->). cbn [a_taw a_ad a_ue orelse].
  destruct (find is_taw (leaves e)) as [x|] eqn:E2.
  { apply find_some in E2 as [_ E2]. destruct x; try discriminate. destruct n; reflexivity. }
  destruct (find is_discard (leaves e)) as [x|] eqn:E3.
  { apply find_some in E3 as [_ E3]. destruct x; try discriminate. destruct n; reflexivity. }
  destruct (find is_upd (leaves e)) as [x|] eqn:E4; [|reflexivity].
  apply find_some in E4 as [_ E4]. destruct x; try discriminate. reflexivity.
Qed.

