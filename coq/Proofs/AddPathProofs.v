(* AddPathProofs.v — C15 (capability part): the ADD-PATH capability value is a list of
   4-octet tuples, decoded exactly and encoded as the specification says. *)
From Verif Require Import Base Packet PacketSpec BaseLemmas ListDecode PacketProofs.

Lemma spec_aptuple_enc_len a : blen (spec_aptuple_enc a) = 4.
Proof. reflexivity. Qed.

Lemma aptuple_encode_spec a : aptuple_repr a = true -> aptuple_encode a = spec_aptuple_enc a.
Proof.
  unfold aptuple_repr, aptuple_encode, spec_aptuple_enc. intros H.
  apply andb_true_iff in H as [H Hd]. apply andb_true_iff in H as [Ha Hs].
  rewrite put16_be16 by lia. destruct (ap_tx a), (ap_rx a); try discriminate; reflexivity.
Qed.

Lemma aptuple_decode_enc a rest :
  aptuple_repr a = true -> aptuple_decode (spec_aptuple_enc a ++ rest) = Ok a.
Proof.
  unfold aptuple_repr, spec_aptuple_enc, be16. intros [_ Hd]%andb_true_iff.
  destruct a as [afi safi tx rx]; cbn [ap_afi ap_safi ap_tx ap_rx] in *. cbn [app aptuple_decode].
  rewrite put16_get16.
  destruct tx, rx; try discriminate; reflexivity.
Qed.

(* one iteration of aptuples_loop *)
Definition aptuple_item (b : bytes) : res notif (aptuple * bytes) :=
  do a <- aptuple_decode b; do rest <- of_opt (slice_from b 4); Ok (a, rest).

Lemma aptuple_item_drop b : 4 <= blen b -> aptuple_item b = do a <- aptuple_decode b; Ok (a, drop 4 b).
Proof. intros H. unfold aptuple_item. rewrite slice_from_spec by assumption. reflexivity. Qed.

Lemma aptuple_exact : exact_item aptuple_item spec_aptuple_enc aptuple_repr.
Proof.
  split.
  - intros a r H. rewrite aptuple_item_drop by (rewrite blen_app, spec_aptuple_enc_len; lia).
    rewrite aptuple_decode_enc by assumption. cbn [rbind].
    change 4 with (blen (spec_aptuple_enc a)). rewrite drop_app_exact. reflexivity.
  - intros b Hw. destruct b as [|a1 [|a0 [|s [|d rest]]]]; try exact I.
    apply wf4 in Hw as (H1 & H0 & Hs & Hd & _).
    rewrite aptuple_item_drop by (rewrite !blen_cons; lia). cbn [aptuple_decode].
    pose proof (get16_lt a1 a0 H1 H0) as Hafi.
    destruct (d =? 3) eqn:E3; [|destruct (d =? 2) eqn:E2; [|destruct (d =? 1) eqn:E1; [|exact I]]];
      cbn [rbind]; unfold aptuple_repr, spec_aptuple_enc; cbn [ap_afi ap_safi ap_tx ap_rx];
      rewrite be16_get16 by assumption; (split; [lia|cbn; repeat f_equal; lia]).
  - discriminate.
Qed.

Lemma aptuples_decode_items b :
  aptuples_decode b =
  if (blen b =? 0) || negb (blen b mod 4 =? 0) then Err (open_err 0 []) else items_decode aptuple_item b.
Proof.
  unfold aptuples_decode. destruct (_ || _); [reflexivity|].
  apply (items_loop_unique _ aptuples_loop); [reflexivity|]. clear b. intros f b. cbn [aptuples_loop].
  destruct (0 <? blen b); [|reflexivity]. unfold aptuple_item.
  destruct (aptuple_decode b); cbn [rbind]; try reflexivity. destruct (slice_from b 4); reflexivity.
Qed.

Lemma blen_flat_map_ap l : blen (flat_map spec_aptuple_enc l) = 4 * N.of_nat (length l).
Proof.
  induction l as [|a l IH]; [reflexivity|].
  cbn [flat_map length]. rewrite blen_app, IH, spec_aptuple_enc_len. lia.
Qed.

Theorem aptuples_decode_total b :
  wf_bytes b = true -> aptuples_decode b <> Panic /\ aptuples_decode b <> OutOfFuel.
Proof.
  intros Hw. rewrite aptuples_decode_items.
  destruct ((blen b =? 0) || negb (blen b mod 4 =? 0)); [split; discriminate|].
  apply (items_total aptuple_exact), Hw.
Qed.
