(* ConnProofs.v — Layer B: the predicates the connection-level properties are stated with, OPEN
   handling in OpenSent (C02/C06), the shapes a step of the connection can have, and from them
   the callback discipline along any input sequence (C01/C03/C09). *)
From Verif Require Import Base Packet Conn.
From Coq Require Import ZifyBool.

Definition live (ph : cphase) : bool :=
  match ph with POpenSent | POpenConfirm | PEstablished => true | _ => false end.
Definition state_sub (ph : cphase) : N :=
  match ph with POpenSent => 1 | POpenConfirm => 2 | _ => 3 end.

Definition legal (ph : cphase) (m : msg) : bool :=
  match ph, m with
  | POpenSent, MOpen _ => true
  | POpenConfirm, MKeepalive => true
  | PEstablished, MKeepalive => true
  | PEstablished, MUpdate _ => true
  | _, _ => false
  end.

Definition is_write (a : caction) : bool := match a with AWrite _ => true | _ => false end.
Definition writes (l : list caction) : list bytes :=
  flat_map (fun a => match a with AWrite b => [b] | _ => [] end) l.
Lemma writes_app l1 l2 : writes (l1 ++ l2) = writes l1 ++ writes l2.
Proof. apply flat_map_app. Qed.

Definition negotiated (cf : cconf) (o : openmsg) : N :=
  N.min (cf_hold cf * second) (o_hold o * second).

Lemma negotiated_if cf o :
  (if cf_hold cf * second <? o_hold o * second then cf_hold cf * second else o_hold o * second) = negotiated cf o.
Proof. unfold negotiated. destruct (cf_hold cf * second <? o_hold o * second) eqn:E; lia. Qed.

Theorem open_in_opensent cf pl h k o :
  conn_step cf pl (mkC POpenSent h k) (IRd (RMsg (MOpen o))) =
  match open_validate (cf_lid cf) (cf_las cf) (cf_ras cf) o with
  | Some n =>   (* refused: one NOTIFICATION, close, no OnOpenMessage, never Established *)
      (mkC PDone h k, [AWrite (notif_encode n); ACloseConn; AStopHold; AReturn 1 (ENotifOut n)])
  | None =>
      match pl_on_open pl with
      | Some n =>   (* the plugin's notification is sent verbatim *)
          (mkC PDone h k, [AOnOpen (o_id o) (get_capabilities o); AWrite (notif_encode n);
                           ACloseConn; AStopHold; AReturn 1 (ENotifOut n)])
      | None =>
          (mkC PWaitOC (negotiated cf o) k,
           [AOnOpen (o_id o) (get_capabilities o); AWrite keepalive_encode]
           ++ (if negotiated cf o =? 0 then [AStopHold]
               else [AArmKA (negotiated cf o / 3); AArmHold (negotiated cf o)])
           ++ [AReturn 5 ENone])
      end
  end.
Proof.
  cbn [conn_step c_phase].
  destruct (open_validate (cf_lid cf) (cf_las cf) (cf_ras cf) o); [reflexivity|].
  destruct (pl_on_open pl); [reflexivity|].
  rewrite negotiated_if. reflexivity.
Qed.

(* what is written before the connection is closed follows from the error returned *)
Definition reply (e : errclass) : list caction :=
  match e with ENotifOut n => [AWrite (notif_encode n)] | _ => [] end.
(* accepted traffic restarts the hold timer *)
Definition restart_hold (h : N) : list caction := if h =? 0 then [] else [AArmHold h].

(* where a NOTIFICATION that is sent comes from; k is the number of UPDATEs handled so far (the bound on the
   subcode is what FrameProofs.origin_repr needs to call an FSM error representable) *)
Inductive origin cf pl (k : nat) : cinput -> notif -> Prop :=
| or_cease i : origin cf pl k i cease
| or_hold i : origin cf pl k i hold_expired
| or_fsm i sub m : sub < 256 -> origin cf pl k i (fsm_err sub (msg_type m))
| or_reader n : origin cf pl k (IRd (RErrNotif n)) n
| or_open i o n : open_validate (cf_lid cf) (cf_las cf) (cf_ras cf) o = Some n -> origin cf pl k i n
| or_on_open i n : pl_on_open pl = Some n -> origin cf pl k i n
| or_handler i n : pl_handler pl k = Some n -> origin cf pl k i n.

(* the one callback a state function may make in the step that ends the connection *)
Inductive last_call : cphase -> nat -> list caction -> nat -> Prop :=
| lc_none ph k : last_call ph k [] k
| lc_open k id caps : last_call POpenSent k [AOnOpen id caps] k
| lc_handler k b : last_call PEstablished k [AHandler b] (S k).

(* conn_step st i as a relation: the case analysis over phase and input is done once, in
   conn_step_shape, and a property of all steps is proved by cases over these shapes.  Nothing
   happens when the state does not select on the input (it is finished or waits for the manager);
   a state that does lets pass only an approval nobody waits for and the expiry of a timer it has
   not started, which is what the timed model needs to know. *)
Inductive shape cf pl : cstate -> cinput -> cstate * list caction -> Prop :=
| sh_nothing st i :
    (live (c_phase st) = true ->
     match i with
     | IApprove => True
     | IKA => c_phase st = POpenSent \/ c_holdns st = 0
     | IHold => c_phase st <> POpenSent /\ c_holdns st = 0
     | _ => False
     end) ->
    shape cf pl st i (st, [])
| sh_closed ph h k i cb k' d e :
    live ph = true -> last_call ph k cb k' -> match e with ENotifOut n => origin cf pl k i n | _ => True end ->
    shape cf pl (mkC ph h k) i (mkC PDone h k', cb ++ reply e ++ teardown ph ++ [AReturn d e])
| sh_stopped ph h k :
    ph = PWaitOC \/ ph = PWaitEst ->
    shape cf pl (mkC ph h k) IStop
          (mkC PDone h k, [AWrite (notif_encode cease); ACloseConn; AStopHold; AStopKA])
| sh_open h k o :
    shape cf pl (mkC POpenSent h k) (IRd (RMsg (MOpen o)))
          (mkC PWaitOC (negotiated cf o) k,
           [AOnOpen (o_id o) (get_capabilities o); AWrite keepalive_encode]
           ++ (if negotiated cf o =? 0 then [AStopHold]
               else [AArmKA (negotiated cf o / 3); AArmHold (negotiated cf o)])
           ++ [AReturn 5 ENone])
| sh_confirmed h k :
    shape cf pl (mkC POpenConfirm h k) (IRd (RMsg MKeepalive))
          (mkC PWaitEst h k, restart_hold h ++ [AReturn 6 ENone])
| sh_keepalive h k :
    shape cf pl (mkC PEstablished h k) (IRd (RMsg MKeepalive)) (mkC PEstablished h k, restart_hold h)
| sh_update h k b :
    pl_handler pl k = None ->
    shape cf pl (mkC PEstablished h k) (IRd (RMsg (MUpdate b)))
          (mkC PEstablished h (S k), AHandler b :: restart_hold h)
| sh_approved_oc h k : shape cf pl (mkC PWaitOC h k) IApprove (mkC POpenConfirm h k, [])
| sh_approved_est h k :
    shape cf pl (mkC PWaitEst h k) IApprove
          (mkC PEstablished h k, AOnEstablished :: map (fun b => AWrite (update_frame b)) (pl_est_writes pl))
| sh_ka_timer ph h k :
    ph = POpenConfirm \/ ph = PEstablished -> h <> 0 ->
    shape cf pl (mkC ph h k) IKA (mkC ph h k, [AWrite keepalive_encode; AArmKA (h / 3)]).

Lemma sh_finish cf pl ph h k i pre d e :
  live ph = true -> pre = reply e -> match e with ENotifOut n => origin cf pl k i n | _ => True end ->
  shape cf pl (mkC ph h k) i (finish (mkC ph h k) pre d e).
Proof. intros Hl -> Ho. exact (sh_closed cf pl ph h k i [] k d e Hl (lc_none ph k) Ho). Qed.

Lemma conn_step_shape cf pl st i : shape cf pl st i (conn_step cf pl st i).
Proof.
  destruct st as [ph h k].
  destruct ph; destruct i as [[[o|b|n|]|n|]| | | |];
    cbn [conn_step c_phase c_holdns c_nupd]; unfold send_and_finish.
  all: try (apply sh_nothing; cbn; intuition discriminate).
  (* a timer expires in OpenConfirm or Established: it was started iff the hold time is not zero *)
  all: try (destruct (N.eqb_spec h 0); [apply sh_nothing; cbn; intuition discriminate|]).
  (* the connection is closed for a reason that the input alone gives *)
  all: try (apply sh_finish; [reflexivity|reflexivity|constructor; reflexivity]).
  (* the step is a constructor of shape as it stands *)
  all: try (constructor; auto; fail).
  - (* an OPEN in OpenSent: refused by validate, refused by the plugin, or accepted *)
    rewrite negotiated_if.
    destruct (open_validate (cf_lid cf) (cf_las cf) (cf_ras cf) o) as [n|] eqn:Ev.
    { apply sh_finish; [reflexivity|reflexivity|exact (or_open cf pl k _ o n Ev)]. }
    destruct (pl_on_open pl) as [n|] eqn:Eo; [|apply sh_open].
    exact (sh_closed cf pl POpenSent h k _ _ k _ (ENotifOut n) eq_refl (lc_open k _ _) (or_on_open cf pl k _ n Eo)).
  - (* an UPDATE in Established: the handler's notification ends the session *)
    destruct (pl_handler pl k) as [n|] eqn:Eh; [|apply sh_update, Eh].
    exact (sh_closed cf pl PEstablished h k _ _ (S k) _ (ENotifOut n) eq_refl (lc_handler k b) (or_handler cf pl k _ n Eh)).
Qed.

(* C06, zero hold time: the actions that start a timer *)
Definition arms (a : caction) : bool := match a with AArmHold _ | AArmKA _ => true | _ => false end.

Definition count {A} (p : A -> bool) (l : list A) : nat := length (filter p l).
Definition is_est a := match a with AOnEstablished => true | _ => false end.
Definition is_onclose a := match a with AOnClose => true | _ => false end.
Definition is_handler a := match a with AHandler _ => true | _ => false end.

Lemma count_app {A} p (l1 l2 : list A) : count p (l1 ++ l2) = (count p l1 + count p l2)%nat.
Proof. unfold count. rewrite filter_app, app_length. reflexivity. Qed.
Lemma count_cons {A} p (x : A) l : count p (x :: l) = ((if p x then 1 else 0) + count p l)%nat.
Proof. unfold count. cbn [filter]. destruct (p x); reflexivity. Qed.

Lemma filter_est_writes p (l : list bytes) :
  (forall b, p (AWrite b) = false) -> filter p (map (fun b => AWrite (update_frame b)) l) = [].
Proof. intros H. induction l; cbn [map filter]; [reflexivity|]. rewrite H. exact IHl. Qed.

(* one step: OnEstablished only on entering Established; OnClose only on leaving it;
   handler calls only while in Established *)
Lemma step_callbacks cf pl st i :
  let (st', acts) := conn_step cf pl st i in
  count is_est acts = (if match c_phase st, c_phase st' with PWaitEst, PEstablished => true | _, _ => false end then 1 else 0)%nat
  /\ count is_onclose acts = (if match c_phase st, c_phase st' with PEstablished, PDone => true | _, _ => false end then 1 else 0)%nat
  /\ (count is_handler acts <= 1)%nat
  /\ (count is_handler acts = 1%nat -> c_phase st = PEstablished).
Proof.
  destruct (conn_step_shape cf pl st i)
    as [st i _|ph h k i cb k' d e Hl Hc _|ph h k [-> | ->]|h k o|h k|h k|h k b _|h k|h k|ph h k [-> | ->] _];
    unfold count, reply, restart_hold; cbn [c_phase].
  (* every piece of the action list is explicit once these are known: the phase; in the closing
     step the callback, the error class and the phase; whether the hold time is zero *)
  2: destruct Hc, e; try destruct ph; try discriminate Hl.
  1: destruct (c_phase st).
  all: try destruct (_ =? 0); cbn [filter length app teardown is_est is_onclose is_handler];
    rewrite ?filter_est_writes by reflexivity; cbn [length]; intuition lia.
Qed.

(* state: OnOpenMessage seen; 0 = not yet established, 1 = between OnEstablished and OnClose, 2 = closed *)
Definition mstate := (bool * N)%type.
Definition mon_step (m : mstate) (a : caction) : option mstate :=
  let (o, p) := m in
  match a with
  | AOnOpen _ _ => if o || negb (p =? 0) then None else Some (true, p)
  | AOnEstablished => if p =? 0 then Some (o, 1) else None
  | AHandler _ => if p =? 1 then Some (o, p) else None
  | AOnClose => if p =? 1 then Some (o, 2) else None
  | _ => Some (o, p)
  end.
Fixpoint mon_run (m : mstate) (l : list caction) : option mstate :=
  match l with
  | [] => Some m
  | a :: r => match mon_step m a with Some m' => mon_run m' r | None => None end
  end.

Lemma mon_run_app m l1 l2 :
  mon_run m (l1 ++ l2) = match mon_run m l1 with Some m' => mon_run m' l2 | None => None end.
Proof. revert m. induction l1 as [|a l1 IH]; intros m; [reflexivity|]. cbn. destruct (mon_step m a); auto. Qed.

Lemma mon_run_est_writes m (l : list bytes) : mon_run m (map (fun b => AWrite (update_frame b)) l) = Some m.
Proof. induction l; cbn; [reflexivity|]. destruct m. exact IHl. Qed.

(* the monitor state that goes with each phase of the connection *)
Definition mon_rel (ph : cphase) (m : mstate) : Prop :=
  match ph with
  | POpenSent => m = (false, 0)
  | PWaitOC | POpenConfirm | PWaitEst => m = (true, 0)
  | PEstablished => m = (true, 1)
  | PDone => snd m <> 1
  end.

Lemma step_monitor cf pl st i m :
  mon_rel (c_phase st) m ->
  exists m', mon_run m (snd (conn_step cf pl st i)) = Some m'
             /\ mon_rel (c_phase (fst (conn_step cf pl st i))) m'.
Proof.
  intros Hr.
  destruct (conn_step_shape cf pl st i)
    as [st i _|ph h k i cb k' d e Hl Hc _|ph h k [-> | ->]|h k o|h k|h k|h k b _|h k|h k|ph h k [-> | ->] _];
    unfold reply, restart_hold; cbn [fst snd c_phase] in *.
  1: exists m; split; [reflexivity|exact Hr].
  (* in every other shape the phase fixes m, and the monitor runs over an explicit list: see step_callbacks *)
  1: destruct Hc, e; try destruct ph; try discriminate Hl.
  all: try destruct (_ =? 0); cbn [mon_rel] in Hr; subst m;
    cbn [app teardown mon_run mon_step orb negb N.eqb Pos.eqb]; rewrite ?mon_run_est_writes;
    eexists; (split; [reflexivity|]); cbn [mon_rel snd]; (reflexivity || discriminate).
Qed.

Theorem run_monitor cf pl : forall ins st m,
  mon_rel (c_phase st) m ->
  exists m', mon_run m (snd (conn_run cf pl st ins)) = Some m'
             /\ mon_rel (c_phase (fst (conn_run cf pl st ins))) m'.
Proof.
  induction ins as [|i r IH]; intros st m Hr.
  - exists m. split; [reflexivity|exact Hr].
  - cbn [conn_run]. destruct (step_monitor cf pl st i m Hr) as (m1 & H1 & R1).
    destruct (conn_step cf pl st i) as [st1 a1]. cbn [fst snd] in *.
    destruct (IH st1 m1 R1) as (m2 & H2 & R2).
    destruct (conn_run cf pl st1 r) as [st2 a2]. cbn [fst snd] in *.
    exists m2. split; [|exact R2]. rewrite mon_run_app, H1. exact H2.
Qed.

(* C01/C03/C09 on one connection, for every input sequence (messages, errors, timer
   expiries, stop requests, approvals in any order): OnOpenMessage at most once and only
   before OnEstablished; handler calls only between OnEstablished and OnClose; OnClose at most
   once and only after OnEstablished; and when the connection is finished, an OnEstablished
   has its OnClose *)
Theorem callbacks_wellformed cf pl ins :
  exists m', mon_run (false, 0) (snd (conn_run cf pl cinit ins)) = Some m'
             /\ (c_phase (fst (conn_run cf pl cinit ins)) = PDone -> snd m' <> 1).
Proof.
  destruct (run_monitor cf pl ins cinit (false, 0) eq_refl) as (m' & H & R).
  exists m'. split; [exact H|]. intros Hd. rewrite Hd in R. exact R.
Qed.

Theorem done_absorbing cf pl ins st :
  c_phase st = PDone -> conn_run cf pl st ins = (st, []).
Proof.
  destruct st as [ph h k]. cbn [c_phase]. intros ->. induction ins as [|i r IH]; [reflexivity|].
  cbn [conn_run conn_step c_phase]. rewrite IH. reflexivity.
Qed.
