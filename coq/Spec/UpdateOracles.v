(* UpdateOracles.v — the C16–C19 properties as executable predicates over what
   an implementation returned (token lists).  Verified model functions are used
   only as decision procedures for "no well-formed value encodes to this byte
   string" (their equivalence with the specification encoders is a theorem). *)
From Verif Require Import Base Packet Errors Update PacketSpec OpenSpec UpdateSpec.

Definition ook := [1].
Definition obad (clause : N) := [0; clause].
Definition ona := [2].

(* ---- token readers ---- *)
Definition rd_bytes (l : list N) : option (bytes * list N) :=
  match l with
  | n :: r => if n <=? blen r then Some (take n r, drop n r) else None
  | [] => None
  end.

Definition rd_prefix (l : list N) : option (prefix * list N) :=
  match l with
  | bits :: r => match rd_bytes r with Some (a, r') => Some (mkPrefix bits a, r') | None => None end
  | [] => None
  end.
Definition rd_apprefix (l : list N) : option (apprefix * list N) :=
  match l with
  | id :: r => match rd_prefix r with Some (p, r') => Some (mkAPP id p, r') | None => None end
  | [] => None
  end.

Fixpoint rd_many {A} (rd : list N -> option (A * list N)) (k : nat) (l : list N) : option (list A * list N) :=
  match k with
  | O => Some ([], l)
  | S k' => match rd l with
            | Some (a, r) => match rd_many rd k' r with
                             | Some (as_, r') => Some (a :: as_, r')
                             | None => None
                             end
            | None => None
            end
  end.
Definition rd_list {A} (rd : list N -> option (A * list N)) (l : list N) : option (list A * list N) :=
  match l with n :: r => rd_many rd (N.to_nat n) r | [] => None end.
Definition rd_n (l : list N) : option (N * list N) := match l with x :: r => Some (x, r) | [] => None end.

Definition rd_notif (l : list N) : option (notif * list N) :=
  match l with
  | c :: s :: r => match rd_bytes r with Some (d, r') => Some (mkNotif c s d, r') | None => None end
  | _ => None
  end.

Definition rd_oerr (l : list N) : option (option err * list N) :=
  match l with
  | 0 :: r => Some (None, r)
  | 1 :: r => match untok_err (S (length r)) r with Some (e, r') => Some (Some e, r') | None => None end
  | _ => None
  end.

Definition notif_eqb (a b : notif) : bool :=
  (n_code a =? n_code b) && (n_sub a =? n_sub b) && beqb (n_data a) (n_data b).

(* ---- C19: prefix lists ---- *)
Definition oracle_prefixes (ipv6 addpath : bool) (b : bytes) (out : list N)
           (expect_notif : option notif) : list N :=
  match out with
  | 0 :: r =>
      if addpath then
        match rd_list rd_apprefix r with
        | Some (l, []) =>
            if forallb (apprefix_wf ipv6) l && beqb (flat_map spec_apprefix_enc l) b then ook else obad 1
        | _ => obad 3
        end
      else
        match rd_list rd_prefix r with
        | Some (l, []) =>
            if forallb (prefix_wf ipv6) l && beqb (spec_prefixes_enc l) b then ook else obad 1
        | _ => obad 3
        end
  | 1 :: r =>
      (* refused: then no well-formed list encodes to b, and the notification is the assigned one *)
      let undecodable :=
        if addpath then match decode_ap_prefixes b ipv6 with Ok _ => false | _ => true end
        else match decode_prefixes b ipv6 with Ok _ => false | _ => true end in
      if negb undecodable then obad 2 else
      match expect_notif, r with
      | None, [] => ook
      | Some n, _ => match rd_notif r with
                     | Some (n', []) => if notif_eqb n n' then ook else obad 4
                     | _ => obad 3
                     end
      | _, _ => obad 3
      end
  | _ => obad 5
  end.

Definition oracle_v6nh (b : bytes) (out : list N) : list N :=
  let good := (blen b =? 16) || (blen b =? 32) in
  match out with
  | 0 :: r =>
      match rd_list rd_bytes r with
      | Some (l, []) =>
          if good && forallb (fun a => blen a =? 16) l && beqb (concat l) b then ook else obad 1
      | _ => obad 3
      end
  | 1 :: r =>
      match rd_notif r with
      | Some (n, []) => if negb good && notif_eqb n (mkNotif 3 0 []) then ook else obad 2
      | _ => obad 3
      end
  | _ => obad 5
  end.

(* ---- C19: MP splitters ---- *)
Definition err_eqb (a b : option err) : bool := beqb (tok_oerr a) (tok_oerr b).

Definition oracle_mp_reach (flags : N) (b : bytes) (cb : option err) (out : list N) : list N :=
  let fe := spec_flag_err 14 flags b (true, false) in
  match out with
  | 0 :: r =>
      match b with
      | a1 :: a0 :: safi :: nh :: rest =>
          if nh + 1 <=? blen rest then
            (* callback gets AFI, SAFI, next hop, and the bytes after the reserved octet *)
            match r with
            | 1 :: afi :: safi' :: r1 =>
                match rd_bytes r1 with
                | Some (nhb, r2) =>
                    match rd_bytes r2 with
                    | Some (nlri, r3) =>
                        match rd_oerr r3 with
                        | Some (e, []) =>
                            if (afi =? a1 * 256 + a0) && (safi' =? safi) && beqb nhb (take nh rest)
                               && beqb nlri (drop (nh + 1) rest) && err_eqb e (join2 fe cb)
                            then ook else obad 1
                        | _ => obad 3
                        end
                    | None => obad 3
                    end
                | None => obad 3
                end
            | _ => obad 2   (* callback not invoked although the attribute is long enough *)
            end
          else
            match r with
            | 0 :: r1 => match rd_oerr r1 with
                         | Some (e, []) => if err_eqb e (join2 fe (Some (ENotif (mkNotif 3 5 [])))) then ook else obad 4
                         | _ => obad 3
                         end
            | _ => obad 6   (* callback invoked on a too-short attribute *)
            end
      | _ =>
          match r with
          | 0 :: r1 => match rd_oerr r1 with
                       | Some (e, []) => if err_eqb e (join2 fe (Some (ENotif (mkNotif 3 5 [])))) then ook else obad 4
                       | _ => obad 3
                       end
          | _ => obad 6
          end
      end
  | _ => obad 5
  end.

Definition oracle_mp_unreach (flags : N) (b : bytes) (cb : option err) (out : list N) : list N :=
  let fe := spec_flag_err 15 flags b (true, false) in
  match out with
  | 0 :: r =>
      match b with
      | a1 :: a0 :: safi :: wd =>
          match r with
          | 2 :: afi :: safi' :: r1 =>
              match rd_bytes r1 with
              | Some (w, r2) =>
                  match rd_oerr r2 with
                  | Some (e, []) =>
                      if (afi =? a1 * 256 + a0) && (safi' =? safi) && beqb w wd && err_eqb e (join2 fe cb)
                      then ook else obad 1
                  | _ => obad 3
                  end
              | None => obad 3
              end
          | _ => obad 2
          end
      | _ =>
          match r with
          | 0 :: r1 => match rd_oerr r1 with
                       | Some (e, []) => if err_eqb e (join2 fe (Some (ENotif (mkNotif 3 5 [])))) then ook else obad 4
                       | _ => obad 3
                       end
          | _ => obad 6
          end
      end
  | _ => obad 5
  end.

(* ---- C18: typed attribute decoders ---- *)
Definition rd_attrval (l : list N) : option attrval :=
  match l with
  | [1; o] => Some (VOrigin o)
  | 2 :: r => match rd_list rd_n r with
              | Some (s, r') => match rd_list rd_n r' with
                                | Some (q, []) => Some (VASPath s q)
                                | _ => None
                                end
              | None => None
              end
  | 3 :: r => match rd_bytes r with Some (a, []) => Some (VAddr a) | _ => None end
  | [4; x] => Some (VU32 x)
  | [5] => Some VAtomic
  | 6 :: a :: r => match rd_bytes r with Some (ip, []) => Some (VAggregator a ip) | _ => None end
  | 7 :: r => match rd_list rd_n r with Some (l, []) => Some (VU32s l) | _ => None end
  | 8 :: r => match rd_list rd_bytes r with Some (l, []) => Some (VAddrs l) | _ => None end
  | 9 :: r => match rd_list (fun l => match l with a :: b :: c :: r => Some ((a, b, c), r) | _ => None end) r with
              | Some (l, []) => Some (VLarge l)
              | _ => None
              end
  | _ => None
  end.

Definition value_shape_ok (code : N) (v : attrval) : bool :=
  match code, v with
  | 1, VOrigin _ | 2, VASPath _ _ | 3, VAddr _ | 9, VAddr _ | 4, VU32 _ | 5, VU32 _
  | 6, VAtomic | 7, VAggregator _ _ | 8, VU32s _ | 10, VAddrs _ | 32, VLarge _ => true
  | _, _ => false
  end.

Definition u32_ok (x : N) : bool := x <? 4294967296.

(* exactness of the decoded value *)
Definition value_exact (code : N) (b : bytes) (v : attrval) : bool :=
  value_shape_ok code v &&
  match v with
  | VASPath s q =>
      match aspath_segments b with
      | Some segs =>
          (* no AS number lost: all AS_SET members and all AS_SEQUENCE members, in order *)
          beqb s (flat_map snd (filter (fun t => fst t =? 1) segs))
          && beqb q (flat_map snd (filter (fun t => fst t =? 2) segs))
      | None => false
      end
  | VU32 x => u32_ok x && beqb (spec_attrval_enc v) b
  | VAggregator a ip => u32_ok a && (blen ip =? 4) && beqb (spec_attrval_enc v) b
  | VU32s l => forallb u32_ok l && beqb (spec_attrval_enc v) b
  | VAddrs l => forallb (fun a => blen a =? 4) l && beqb (spec_attrval_enc v) b
  | VLarge l => forallb (fun t => u32_ok (fst (fst t)) && u32_ok (snd (fst t)) && u32_ok (snd t)) l
                && beqb (spec_attrval_enc v) b
  | _ => beqb (spec_attrval_enc v) b
  end.

Definition oracle_attr (code flags : N) (b : bytes) (out : list N) : list N :=
  match rfc_flags code with
  | None => ona
  | Some want =>
      let should_accept := flags_match flags want && rfc_value_ok code b in
      match out with
      | 0 :: r =>
          match rd_attrval r with
          | Some v => if negb should_accept then obad 1
                      else if value_exact code b v then ook else obad 7
          | None => obad 3
          end
      | 1 :: r =>
          match untok_err (S (length r)) r with
          | Some (e, []) => if should_accept then obad 2
                            else if spec_attr_failure code flags b e then ook else obad 4
          | _ => obad 3
          end
      | _ => obad 5
      end
  end.

Definition oracle_flags (p : N) (out : list N) : list N :=
  match out with
  | [o; t; pa; e] =>
      if (o =? (p / 128) mod 2) && (t =? (p / 64) mod 2) && (pa =? (p / 32) mod 2) && (e =? (p / 16) mod 2)
      then ook else obad 1
  | _ => obad 3
  end.

(* ---- C16: the calls of an all-nil-callback Decode ---- *)
Definition rd_call (l : list N) : option (call * list N) :=
  match l with
  | 1 :: r => match rd_bytes r with Some (b, r') => Some (CWr b, r') | None => None end
  | 2 :: c :: f :: r => match rd_bytes r with Some (b, r') => Some (CPa c f b, r') | None => None end
  | 3 :: r => match rd_bytes r with Some (b, r') => Some (CNl b, r') | None => None end
  | _ => None
  end.
Definition call_tok (c : call) : list N :=
  match c with
  | CWr b => 1 :: blen b :: b
  | CPa code flags b => 2 :: code :: flags :: blen b :: b
  | CNl b => 3 :: blen b :: b
  end.
Definition calls_eqb (a b : list call) : bool :=
  (N.of_nat (length a) =? N.of_nat (length b)) && beqb (flat_map call_tok a) (flat_map call_tok b).

Definition rd_decode_out (out : list N) : option (list call * option err) :=
  match out with
  | 0 :: r => match rd_list rd_call r with
              | Some (cs, r') => match rd_oerr r' with
                                 | Some (e, []) => Some (cs, e)
                                 | _ => None
                                 end
              | None => None
              end
  | _ => None
  end.

Definition oracle_calls (b : bytes) (script_nil : bool) (out : list N) : list N :=
  if negb script_nil then ona else
  match rd_decode_out out with
  | Some (cs, _) => if calls_eqb cs (spec_calls b) then ook else obad 1
  | None => obad 5   (* panic or garbage *)
  end.

(* ---- C17: error reporting ---- *)
Fixpoint subseq (a b : list (list N)) : bool :=   (* a is a subsequence of b *)
  match a, b with
  | [], _ => true
  | _, [] => false
  | x :: a', y :: b' => if beqb x y then subseq a' b' else subseq a b'
  end.

Definition cls_eqb (a b : eclass) : bool := cls_rank a =? cls_rank b.

(* the errors the callbacks returned for the calls that were made: entries 0..n-1 of the script *)
Fixpoint script_prefix (sc : nat -> option err) (n : nat) : list (option err) :=
  match n with O => [] | S k => script_prefix sc k ++ [sc k] end.

Definition oracle_errors (b : bytes) (sc : nat -> option err) (out : list N) : list N :=
  match rd_decode_out out with
  | None => obad 5
  | Some (cs, e) =>
      let returned := script_prefix sc (length cs) in
      let cb_errs := flat_map (fun o => match o with Some x => [x] | None => [] end) returned in
      let cb_notif := existsb has_notif cb_errs in
      match spec_sections b with
      | None =>
          (* inconsistent lengths / short body: a Notification, no callback *)
          match e with
          | Some (ENotif n) =>
              if is_nil cs && (n_code n =? 3)
                 && (if blen b <? 4 then n_sub n =? 0 else n_sub n =? 1) && is_nil (n_data n)
              then ook else obad 1
          | _ => obad 1
          end
      | Some (W, A, Nl) =>
          let (items, aend) := attr_items A in
          let codes := map (fun t => fst (fst t)) items in
          let announces := (0 <? blen Nl) || existsb (N.eqb 14) codes in
          let has c := existsb (N.eqb c) codes in
          let missing := announces && negb (has 1 && has 2) in
          (* which structural findings apply depends on where decoding stopped; decoding
             stops at the first callback error that contains a Notification *)
          let stopped_early := cb_notif in
          let clean := match aend with EndClean => true | _ => false end in
          let expect_nil := clean && negb missing && is_nil cb_errs in
          match e with
          | None => if expect_nil then ook else obad 2
          | Some e' =>
              if expect_nil then obad 3 else
              (* contains every callback error, in order *)
              let want := map tok_err (flat_map leaves cb_errs) in
              let got := map tok_err (leaves e') in
              if negb (subseq want got) then obad 4 else
              (* strongest class *)
              let struct_cls :=
                if stopped_early then ClsNone else
                match aend with
                | EndDupMP => ClsNotif
                | EndOverrun _ => ClsTaw
                | EndClean => if missing then ClsTaw else ClsNone
                end in
              let struct_cls := if stopped_early then ClsNone else
                                match aend with EndDupMP => ClsNotif | _ => if missing then ClsTaw else struct_cls end in
              let cb_cls := fold_left cls_max (map strongest cb_errs) ClsNone in
              let want_cls := cls_max struct_cls cb_cls in
              if negb (cls_eqb (strongest e') want_cls) then obad 6 else
              (* a missing mandatory attribute carries (3,3,[code]) as fallback *)
              if negb stopped_early && missing && match aend with EndDupMP => false | _ => true end then
                let mcode := if has 1 then 2 else 1 in
                if existsb (fun l => beqb (tok_err l) (tok_err (ETaw mcode (Some (mkNotif 3 3 [mcode]))))) (leaves e')
                then ook else obad 7
              else ook
          end
      end
  end.

(* C16/C17, any callback behaviour: the calls are the specification's calls cut at the stop, and the
   returned tree has exactly the specification's leaves (UpdateErrProofs.decode_events, C17.c17_errors_exact) *)
Fixpoint all2 {A} (f : A -> A -> bool) (a b : list A) : bool :=
  match a, b with
  | [], [] => true
  | x :: a', y :: b' => f x y && all2 f a' b'
  | _, _ => false
  end.
Definition oracle_events (b : bytes) (sc : nat -> option err) (out : list N) : list N :=
  match rd_decode_out out with
  | None => obad 5
  | Some (cs, e) =>
      if negb (calls_eqb cs (spec_calls_script sc b)) then obad 1 else
      if all2 (fun x y => beqb (tok_err x) (tok_err y)) (oleaves e) (flat_map leaves (spec_err_events sc b))
      then ook else obad 2
  end.

Definition oracle_unfe (e : option err) (out : list N) : list N :=
  if beqb out (tok_onotif (spec_unfe e)) then ook else obad 1.
