(* Closure.v — a kernel-checked inductive-invariant argument for finite-control
   transition systems.  R is an explicit finite set of states (computed by a search, but
   the search is not trusted): if the initial state is in R, every state of R is Good,
   and R is closed under every label that can fire, then every state reachable by any
   trace of any length is Good.  Membership uses a positive-keyed map with a decidable-equality
   confirmation at the leaf, so no injectivity of the key function is needed. *)
From Coq Require Import List Bool PArith FMapPositive.
Import ListNotations.

Section Closure.
  Variables (S L : Type).
  Variable step : S -> L -> option S.
  Variable labels : list L.
  Hypothesis labels_complete : forall l, In l labels.
  Variable key : S -> positive.
  Variable eqb : S -> S -> bool.
  Hypothesis eqb_eq : forall a b, eqb a b = true -> a = b.

  Definition rset := PositiveMap.t (list S).

  Definition mem (s : S) (R : rset) : bool :=
    match PositiveMap.find (key s) R with
    | Some l => existsb (eqb s) l
    | None => false
    end.

  Definition add (s : S) (R : rset) : rset :=
    match PositiveMap.find (key s) R with
    | Some l => PositiveMap.add (key s) (s :: l) R
    | None => PositiveMap.add (key s) [s] R
    end.

  Definition elems (R : rset) : list S := flat_map snd (PositiveMap.elements R).

  (* breadth-first search; untrusted *)
  Fixpoint expand (frontier : list S) (R : rset) (next : list S) : rset * list S :=
    match frontier with
    | [] => (R, next)
    | s :: fr =>
        let '(R', next') :=
          fold_left (fun (acc : rset * list S) l =>
                       match step s l with
                       | Some s' => if mem s' (fst acc) then acc else (add s' (fst acc), s' :: snd acc)
                       | None => acc
                       end) labels (R, next) in
        expand fr R' next'
    end.

  Fixpoint bfs (fuel : nat) (frontier : list S) (R : rset) : rset :=
    match fuel with
    | O => R
    | Datatypes.S f =>
        match frontier with
        | [] => R
        | _ => let (R', next) := expand frontier R [] in bfs f next R'
        end
    end.

  Definition reach (fuel : nat) (init : S) : rset := bfs fuel [init] (add init (PositiveMap.empty _)).

  Definition closed_under (R : rset) : bool :=
    forallb (fun s => forallb (fun l => match step s l with Some s' => mem s' R | None => true end) labels)
            (elems R).
  Definition all_good (Good : S -> bool) (R : rset) : bool := forallb Good (elems R).

  Lemma mem_in_elems s R : mem s R = true -> In s (elems R).
  Proof.
    unfold mem, elems. destruct (PositiveMap.find (key s) R) as [l|] eqn:E; [|discriminate].
    intros H. apply existsb_exists in H as (x & Hx & Heq). apply eqb_eq in Heq. subst x.
    apply in_flat_map. exists (key s, l). split; [|exact Hx].
    apply PositiveMap.elements_correct. exact E.
  Qed.

  Fixpoint run (s : S) (tr : list L) : option S :=
    match tr with
    | [] => Some s
    | l :: r => match step s l with Some s' => run s' r | None => None end
    end.

  Lemma run_app s tr1 tr2 :
    run s (tr1 ++ tr2) = match run s tr1 with Some s1 => run s1 tr2 | None => None end.
  Proof. revert s. induction tr1 as [|l r IH]; intros s; cbn; [reflexivity|]. destruct (step s l); auto. Qed.

  Definition all_good_steps (GoodT : S -> L -> S -> bool) (R : rset) : bool :=
    forallb (fun s => forallb (fun l => match step s l with Some s' => GoodT s l s' | None => true end) labels)
            (elems R).

  Lemma run_inv (P : S -> Prop) :
    (forall s l s', P s -> step s l = Some s' -> P s') ->
    forall tr s0 s, P s0 -> run s0 tr = Some s -> P s.
  Proof.
    intros Hc. induction tr as [|l r IH]; intros s0 s Hm Hr; cbn in Hr.
    - injection Hr as <-. exact Hm.
    - destruct (step s0 l) as [s1|] eqn:Es; [|discriminate]. eauto.
  Qed.

  (* the two premises of an invariant argument on their own, swept over a list of all labels;
     closed_under R is all_good_steps (fun _ _ s' => mem s' R) R *)
  Lemma steps_forall (P : S -> L -> S -> bool) (R : rset) :
    all_good_steps P R = true ->
    forall s l s', mem s R = true -> step s l = Some s' -> P s l s' = true.
  Proof.
    intros H s l s' Hm Hs. unfold all_good_steps in H. rewrite forallb_forall in H.
    specialize (H s (mem_in_elems _ _ Hm)). rewrite forallb_forall in H.
    specialize (H l (labels_complete l)). rewrite Hs in H. exact H.
  Qed.

  Lemma closed_mem (R : rset) :
    closed_under R = true -> forall tr s0 s, mem s0 R = true -> run s0 tr = Some s -> mem s R = true.
  Proof.
    intros H. apply (run_inv (fun s => mem s R = true)).
    intros s l s' Hm Hs. exact (steps_forall (fun _ _ s' => mem s' R) R H s l s' Hm Hs).
  Qed.

  Theorem closure_sound (Good : S -> bool) (R : rset) (init : S) :
    mem init R = true -> all_good Good R = true -> closed_under R = true ->
    forall tr s, run init tr = Some s -> Good s = true.
  Proof.
    intros Hi Hg Hc tr s Hr. unfold all_good in Hg. rewrite forallb_forall in Hg. apply Hg, mem_in_elems.
    exact (closed_mem R Hc tr init s Hi Hr).
  Qed.

  Theorem closure_sound_step (GoodT : S -> L -> S -> bool) (R : rset) (init : S) :
    mem init R = true -> closed_under R = true -> all_good_steps GoodT R = true ->
    forall tr s l s', run init tr = Some s -> step s l = Some s' -> GoodT s l s' = true.
  Proof. intros Hi Hc Hg tr s l s' Hr. apply (steps_forall _ R Hg). exact (closed_mem R Hc tr init s Hi Hr). Qed.

  (* The check as it is evaluated: membership of the initial state, and for every member goodness, closure and
     a property of every transition in one pass, so that [step] is evaluated once per state and label for all
     three.  The sweep may depend on the state: [labels_at s] need only hold the labels that can fire from s. *)
  Section At.
    Variable labels_at : S -> list L.
    Hypothesis covers_at : forall s l s', step s l = Some s' -> In l (labels_at s).

    Definition check_at (Good : S -> bool) (GoodT : S -> L -> S -> bool) (init : S) (R : rset) : bool :=
      mem init R
      && forallb (fun s => Good s
                           && forallb (fun l => match step s l with Some s' => mem s' R && GoodT s l s' | None => true end)
                                      (labels_at s))
                 (elems R).

    Theorem check_at_sound Good GoodT init R :
      check_at Good GoodT init R = true ->
      forall tr s, run init tr = Some s ->
      Good s = true /\ forall l s', step s l = Some s' -> GoodT s l s' = true.
    Proof.
      intros [Hi H]%andb_true_iff. rewrite forallb_forall in H.
      (* what the pass says of a member of R *)
      assert (Hat : forall s, mem s R = true ->
                    Good s = true /\ forall l s', step s l = Some s' -> mem s' R = true /\ GoodT s l s' = true).
      { intros s Hm. apply mem_in_elems, H, andb_true_iff in Hm as [Hg Ht]. split; [exact Hg|]. intros l s' Hs.
        rewrite forallb_forall in Ht. specialize (Ht l (covers_at _ _ _ Hs)). rewrite Hs in Ht.
        apply andb_true_iff, Ht. }
      intros tr s Hr. destruct (Hat s) as [Hg Ht].
      { apply (run_inv (fun s => mem s R = true)) with (2 := Hi) (3 := Hr).
        intros s1 l s2 Hm Hs. apply (proj2 (Hat s1 Hm) l s2 Hs). }
      split; [exact Hg|]. intros l s' Hs. apply (Ht l s' Hs).
    Qed.
  End At.
End Closure.

(* if applying f before a step does not show once f is applied after it, runs map along f into the
   system of the images under f *)
Lemma run_map (S L : Type) (step : S -> L -> option S) (f : S -> S) :
  let fstep s l := option_map f (step s l) in
  (forall s l, fstep (f s) l = fstep s l) ->
  forall tr s0 s, run S L step s0 tr = Some s -> run S L fstep (f s0) tr = Some (f s).
Proof.
  intros fstep Hf. induction tr as [|l r IH]; intros s0 s Hr; cbn in *.
  - injection Hr as <-. reflexivity.
  - rewrite Hf. unfold fstep. destruct (step s0 l) as [s1|]; [cbn; auto|discriminate].
Qed.
