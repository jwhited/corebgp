(* C02 — OPEN handshake: exactly the valid OPENs are accepted.  First the decode + validate half
   (handle_open); the FSM half, what the OpenSent state does with the outcome, follows at the end
   of this file (c02_fsm_open, c02_finished_stays_finished, over Conn.v). *)
From Verif Require Import Base Packet PacketSpec OpenSpec PacketProofs OpenProofs2.

Theorem c02_accept_iff : forall lid las ras b id caps hold,
  wf_bytes b = true -> ras < 4294967296 ->
  (handle_open lid las ras b = OAccept id caps hold <->
   exists o, open_repr o = true /\ spec_open_body o = b
             /\ open_acceptable lid las ras o = true
             /\ id = o_id o /\ caps = concat (o_params o) /\ hold = o_hold o).
Proof.
  intros lid las ras b id caps hold Hw Hr. unfold handle_open. split.
  - destruct (open_decode b) as [o|n| |] eqn:Ed; try discriminate.
    destruct (open_decode_inverse b o Hw Ed) as [Ho Hb].
    pose proof (open_validate_spec lid las ras o Hr Ho) as Hv.
    destruct (open_validate lid las ras o) as [n|]; [discriminate|].
    intros [= <- <- <-]. exists o. repeat split; assumption.
  - intros (o & Ho & <- & Ha & -> & -> & ->).
    rewrite open_roundtrip by assumption.
    pose proof (open_validate_spec lid las ras o Hr Ho) as Hv.
    destruct (open_validate lid las ras o) as [n|]; [|reflexivity].
    destruct Hv as [Hv _]. congruence.
Qed.
Print Assumptions c02_accept_iff.

Theorem c02_reject_sound : forall lid las ras b n,
  wf_bytes b = true -> ras < 4294967296 ->
  handle_open lid las ras b = OReject n ->
  (blen b < 10 /\ n = mkNotif 1 2 b)
  \/ (10 <= blen b /\ (n = mkNotif 2 0 [] \/ n = mkNotif 2 4 [])
      /\ forall o, open_repr o = true -> spec_open_body o <> b)
  \/ (exists o, open_repr o = true /\ spec_open_body o = b
                /\ open_acceptable lid las ras o = false
                /\ semantic_fault lid las ras o n = true).
Proof.
  intros lid las ras b n Hw Hr H. apply handle_open_reject in H as [H|(o & H & Hv)].
  - pose proof (open_decode_spec b Hw) as Hs. rewrite H in Hs.
    destruct Hs as [Hs|[Hl Hs]]; [left; exact Hs|right; left].
    split; [assumption|]. split.
    + destruct Hs as [[-> _]|[-> _]]; auto.
    + intros o Ho <-. rewrite open_roundtrip in H by assumption. discriminate.
  - right. right. exists o. destruct (open_decode_inverse b o Hw H) as [Ho Hb].
    pose proof (open_validate_spec lid las ras o Hr Ho) as Hs. rewrite Hv in Hs. tauto.
Qed.
Print Assumptions c02_reject_sound.

(* the structural refusals name a fault the optional-parameters field actually has: subcode 4 only
   with a parameter of unknown type present, subcode 0 only if the field's length octet disagrees with
   the body, the field is empty or overruns, or a capabilities parameter is empty or overruns *)
Theorem c02_structural_fault : forall lid las ras b n,
  wf_bytes b = true -> 10 <= blen b ->
  handle_open lid las ras b = OReject n ->
  (forall o, open_repr o = true -> spec_open_body o <> b) ->
  (n = mkNotif 2 0 [] /\ fault_inconsistent b = true)
  \/ (n = mkNotif 2 4 [] /\ fault_unknown_param b = true).
Proof.
  intros lid las ras b n Hw Hlen H Hno. apply handle_open_reject in H as [H|(o & H & _)].
  - pose proof (open_decode_spec b Hw) as Hs. rewrite H in Hs. destruct Hs as [[Hs _]|[_ Hs]]; [lia|exact Hs].
  - destruct (open_decode_inverse b o Hw H) as [Ho Hb]. destruct (Hno o Ho Hb).
Qed.
Print Assumptions c02_structural_fault.

Example c02_structural_examples :
  handle_open 1 65001 65000 [4; 253;232; 0;90; 10;0;0;2; 4; 3;2;0;0] = OReject (mkNotif 2 4 [])
  /\ fault_unknown_param [4; 253;232; 0;90; 10;0;0;2; 4; 3;2;0;0] = true
  /\ handle_open 1 65001 65000 [4; 253;232; 0;90; 10;0;0;2; 0] = OReject (mkNotif 2 0 [])
  /\ fault_inconsistent [4; 253;232; 0;90; 10;0;0;2; 0] = true.
Proof. vm_compute. repeat split. Qed.

Theorem c02_no_panic : forall lid las ras b,
  wf_bytes b = true -> handle_open lid las ras b <> OPanic.
Proof.
  intros lid las ras b Hw. unfold handle_open. destruct (open_decode_total b Hw) as [H1 H2].
  destruct (open_decode b) as [o|e| |]; try congruence. destruct (open_validate lid las ras o); discriminate.
Qed.
Print Assumptions c02_no_panic.

(* FSM half: what the OpenSent state does with a received OPEN — accepted: OnOpenMessage
   once with the sender's id and capabilities, KEEPALIVE, timers, OpenConfirm; refused: one
   NOTIFICATION, close, no OnOpenMessage; the plugin's notification is sent verbatim; a
   finished connection never becomes Established (PDone is absorbing) *)
From Verif Require Import Conn ConnProofs.
Theorem c02_fsm_open : forall cf pl h k o,
  conn_step cf pl (mkC POpenSent h k) (IRd (RMsg (MOpen o))) =
  match open_validate (cf_lid cf) (cf_las cf) (cf_ras cf) o with
  | Some n => (mkC PDone h k, [AWrite (notif_encode n); ACloseConn; AStopHold; AReturn 1 (ENotifOut n)])
  | None =>
      match pl_on_open pl with
      | Some n => (mkC PDone h k, [AOnOpen (o_id o) (get_capabilities o); AWrite (notif_encode n);
                                   ACloseConn; AStopHold; AReturn 1 (ENotifOut n)])
      | None =>
          (mkC PWaitOC (negotiated cf o) k,
           [AOnOpen (o_id o) (get_capabilities o); AWrite keepalive_encode]
           ++ (if negotiated cf o =? 0 then [AStopHold]
               else [AArmKA (negotiated cf o / 3); AArmHold (negotiated cf o)])
           ++ [AReturn 5 ENone])
      end
  end.
Proof. exact open_in_opensent. Qed.
Print Assumptions c02_fsm_open.

Theorem c02_finished_stays_finished : forall cf pl ins st,
  c_phase st = PDone -> conn_run cf pl st ins = (st, []).
Proof. exact done_absorbing. Qed.
Print Assumptions c02_finished_stays_finished.
