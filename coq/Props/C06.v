(* C06 — hold time negotiation, hold-timer expiry and keepalive cadence (timer logic). *)
From Verif Require Import Base Packet Conn ConnProofs.

(* hold time in force = min(local, received); on acceptance the keep-alive timer is armed with a
   third of it and the hold timer with it, or, when it is zero, the hold timer is stopped *)
Theorem c06_negotiated : forall cf o, negotiated cf o = N.min (cf_hold cf) (o_hold o) * second.
Proof. intros cf o. unfold negotiated, second. lia. Qed.
Print Assumptions c06_negotiated.

Theorem c06_open_accept_timers : forall cf pl h k o,
  conn_step cf pl (mkC POpenSent h k) (IRd (RMsg (MOpen o))) =
  match open_validate (cf_lid cf) (cf_las cf) (cf_ras cf) o with
  | Some n => (mkC PDone h k, [AWrite (notif_encode n); ACloseConn; AStopHold; AReturn 1 (ENotifOut n)])
  | None =>
      match pl_on_open pl with
      | Some n => (mkC PDone h k, [AOnOpen (o_id o) (get_capabilities o); AWrite (notif_encode n);
                                   ACloseConn; AStopHold; AReturn 1 (ENotifOut n)])
      | None =>
          (mkC PWaitOC (negotiated cf o) k,
           [AOnOpen (o_id o) (get_capabilities o); AWrite keepalive_encode]
           ++ (if negotiated cf o =? 0 then [AStopHold]
               else [AArmKA (negotiated cf o / 3); AArmHold (negotiated cf o)])
           ++ [AReturn 5 ENone])
      end
  end.
Proof. exact open_in_opensent. Qed.
Print Assumptions c06_open_accept_timers.

(* expiry: NOTIFICATION (Hold Timer Expired), close, Idle — in OpenConfirm and Established *)
Theorem c06_hold_expiry : forall cf pl st,
  (c_phase st = POpenConfirm \/ c_phase st = PEstablished) -> c_holdns st <> 0 ->
  conn_step cf pl st IHold =
  (mkC PDone (c_holdns st) (c_nupd st),
   [AWrite (notif_encode (mkNotif 4 0 []))] ++ teardown (c_phase st) ++ [AReturn 1 (ENotifOut (mkNotif 4 0 []))]).
Proof.
  intros cf pl [ph h k] Hp Hh. cbn [c_phase c_holdns c_nupd] in *. apply N.eqb_neq in Hh.
  destruct Hp as [-> | ->]; cbn [conn_step c_phase c_holdns]; rewrite Hh; reflexivity.
Qed.
Print Assumptions c06_hold_expiry.

(* keep-alive timer: send KEEPALIVE and re-arm with a third of the hold time *)
Theorem c06_keepalive_timer : forall cf pl st,
  (c_phase st = POpenConfirm \/ c_phase st = PEstablished) -> c_holdns st <> 0 ->
  conn_step cf pl st IKA = (st, [AWrite keepalive_encode; AArmKA (c_holdns st / 3)]).
Proof.
  intros cf pl [ph h k] Hp Hh. cbn [c_phase c_holdns c_nupd] in *. apply N.eqb_neq in Hh.
  destruct Hp as [-> | ->]; cbn [conn_step c_phase c_holdns]; rewrite Hh; reflexivity.
Qed.
Print Assumptions c06_keepalive_timer.

(* zero: no timer is ever armed, timer events do nothing *)
Theorem c06_zero_hold : forall cf pl st i,
  c_holdns st = 0 -> c_phase st <> POpenSent ->
  existsb arms (snd (conn_step cf pl st i)) = false
  /\ c_holdns (fst (conn_step cf pl st i)) = 0
  /\ ((i = IHold \/ i = IKA) -> conn_step cf pl st i = (st, [])).
Proof.
  intros cf pl st i Hh Hp. split; [|split].
  (* by the shape of the step.  Two shapes are excluded: an OPEN is accepted in OpenSent only, and the keep-alive timer
     fires only with a hold time that is not zero.  restart_hold 0 is empty, and the other action lists are explicit
     except in the two cases below *)
  1,2: destruct (conn_step_shape cf pl st i)
         as [st i _|ph h k i cb k' d e _ Hc _|ph h k _|h k o|h k|h k|h k b _|h k|h k|ph h k _ Hn];
       cbn [c_holdns c_phase fst snd] in *; subst; try congruence; try reflexivity.
  - (* closing: neither the last callback, nor the reply, nor the teardown starts a timer *)
    destruct Hc, e; try destruct ph; reflexivity.
  - (* entering Established: the plugin's writes *)
    induction (pl_est_writes pl); [reflexivity|assumption].
  - destruct st as [ph h k]. cbn [c_holdns c_phase] in *. subst h.
    destruct ph; try congruence; intros [-> | ->]; reflexivity.
Qed.
Print Assumptions c06_zero_hold.

(* ---- timed runs (Timed.v): every timed run of any length; timers never fire early ---- *)
From Verif Require Import Timed TimedProofs.

(* never torn down for hold-timer expiry earlier than the hold time after the last accepted
   OPEN / KEEPALIVE / UPDATE *)
Theorem c06_no_early_expiry : forall cf pl ts d r,
  reachable_t cf pl ts -> up (c_phase (ts_conn ts)) = true -> c_holdns (ts_conn ts) <> 0 ->
  tstep cf pl ts d IHold = Some r ->
  ts_last_rx ts + c_holdns (ts_conn ts) <= ts_now ts + d.
Proof. intros cf pl ts d r Hr. exact (no_early_expiry cf pl ts d r (reachable_tinv cf pl ts Hr)). Qed.
Print Assumptions c06_no_early_expiry.

(* once it fires (the remote was silent that long): Hold Timer Expired, close, session over *)
Theorem c06_expiry_action : forall cf pl ts d ts' acts,
  (c_phase (ts_conn ts) = POpenConfirm \/ c_phase (ts_conn ts) = PEstablished) -> c_holdns (ts_conn ts) <> 0 ->
  tstep cf pl ts d IHold = Some (ts', acts) ->
  acts = [AWrite (notif_encode (mkNotif 4 0 []))] ++ teardown (c_phase (ts_conn ts))
         ++ [AReturn 1 (ENotifOut (mkNotif 4 0 []))]
  /\ c_phase (ts_conn ts') = PDone.
Proof.
  intros cf pl ts d ts' acts Hp Hh Hs. unfold tstep in Hs. destruct (negb _); [discriminate|].
  rewrite (c06_hold_expiry cf pl (ts_conn ts) Hp Hh) in Hs.
  destruct (apply_actions _ _ _ _ _) as [[h k] lk]. injection Hs as <- <-. split; reflexivity.
Qed.
Print Assumptions c06_expiry_action.

(* while the session is up the keep-alive timer is armed with a deadline at most a third of the hold
   time after the last KEEPALIVE; served within L, never more than H/3 + L passes without one *)
Theorem c06_keepalive_cadence : forall cf pl ts d L,
  reachable_t cf pl ts -> up (c_phase (ts_conn ts)) = true -> c_holdns (ts_conn ts) <> 0 ->
  served_within L ts d ->
  ts_now ts + d <= ts_last_ka ts + c_holdns (ts_conn ts) / 3 + L.
Proof. intros cf pl ts d L Hr Hup Hh. apply cadence, timers_running; [exact (reachable_tinv cf pl ts Hr)|exact Hup|exact Hh]. Qed.
Print Assumptions c06_keepalive_cadence.

Theorem c06_keepalive_fire : forall cf pl ts d ts' acts,
  (c_phase (ts_conn ts) = POpenConfirm \/ c_phase (ts_conn ts) = PEstablished) -> c_holdns (ts_conn ts) <> 0 ->
  tstep cf pl ts d IKA = Some (ts', acts) ->
  acts = [AWrite keepalive_encode; AArmKA (c_holdns (ts_conn ts) / 3)]
  /\ ts_ka ts' = Some (ts_now ts + d + c_holdns (ts_conn ts) / 3) /\ ts_last_ka ts' = ts_now ts + d.
Proof.
  intros cf pl ts d ts' acts Hp Hh Hs. unfold tstep in Hs. destruct (negb _); [discriminate|].
  rewrite (c06_keepalive_timer cf pl (ts_conn ts) Hp Hh) in Hs. cbn [apply_actions] in Hs. rewrite keepalive_is_ka in Hs.
  injection Hs as <- <-. repeat split.
Qed.
Print Assumptions c06_keepalive_fire.

(* hold time 0: neither timer can ever fire while the session is up *)
Theorem c06_zero_never_fires : forall cf pl ts d i,
  reachable_t cf pl ts -> up (c_phase (ts_conn ts)) = true -> c_holdns (ts_conn ts) = 0 ->
  (i = IHold \/ i = IKA) -> tstep cf pl ts d i = None.
Proof. intros cf pl ts d i Hr. exact (zero_hold_never_fires cf pl ts d i (reachable_tinv cf pl ts Hr)). Qed.
Print Assumptions c06_zero_never_fires.

(* non-vacuity: local hold 9 s, remote proposes 30 s; OPEN accepted at 1 s, approved, KEEPALIVE at 2 s,
   approved (Established), keep-alive timer fires at 4 s, UPDATE at 10 s; the hold timer cannot fire
   at 18.9 s (None) and does at 19 s *)
Example c06_timed_example :
  let cf := mkConf 167772161 65001 65000 9 in
  let pl := mkPlug None (fun _ => None) [] in
  let o := mkOpen 4 65000 30 167772162 [[mkCap 65 [0;0;253;232]]] in
  let s := 1000000000 in
  let pre := [(1 * s, IRd (RMsg (MOpen o))); (0, IApprove); (1 * s, IRd (RMsg MKeepalive)); (0, IApprove);
              (2 * s, IKA); (6 * s, IRd (RMsg (MUpdate [0;0;0;0])))] in
  match trun cf pl (tinit 0) pre with
  | Some ts => c_phase (ts_conn ts) = PEstablished /\ c_holdns (ts_conn ts) = 9 * s /\ ts_last_rx ts = 10 * s
               /\ tstep cf pl ts (89 * s / 10) IHold = None
               /\ (exists r, tstep cf pl ts (9 * s) IHold = Some r)
  | None => False
  end.
Proof. vm_compute. repeat split. eexists. reflexivity. Qed.

(* ---- timed runs with local WriteUpdate calls (TimedW.v): every interleaving of the connection's own inputs,
        plugin writes and the keep-alive manager serving their reset requests ---- *)
From Verif Require Import TimedW TimedWProofs.

(* "never lets more than about one third of the hold time pass without sending a KEEPALIVE or UPDATE", for all
   local WriteUpdate patterns: the keep-alive timer is armed with a deadline at most H/3 + (largest latency between an
   UPDATE write and the manager serving its reset) after the last KEEPALIVE or UPDATE written; served within L *)
Theorem c06_cadence_with_writes : forall cf pl xs d L,
  reachable_x cf pl xs -> up (c_phase (ts_conn (xs_t xs))) = true -> c_holdns (ts_conn (xs_t xs)) <> 0 ->
  served_within L (xs_t xs) d ->
  ts_now (xs_t xs) + d <= last_tx xs + c_holdns (ts_conn (xs_t xs)) / 3 + xs_maxlat xs + L.
Proof. intros cf pl xs d L Hr Hup Hh. apply cadence. exact (x_keepalive_armed xs (reachable_xinv cf pl xs Hr) Hup Hh). Qed.
Print Assumptions c06_cadence_with_writes.

Theorem c06_armed_with_writes : forall cf pl xs,
  reachable_x cf pl xs -> up (c_phase (ts_conn (xs_t xs))) = true -> c_holdns (ts_conn (xs_t xs)) <> 0 ->
  exists dl, ts_ka (xs_t xs) = Some dl /\ dl <= last_tx xs + c_holdns (ts_conn (xs_t xs)) / 3 + xs_maxlat xs.
Proof. intros cf pl xs Hr. exact (x_keepalive_armed xs (reachable_xinv cf pl xs Hr)). Qed.
Print Assumptions c06_armed_with_writes.

(* local writes never make the hold timer fire early (they restart the keep-alive timer only) *)
Theorem c06_no_early_expiry_with_writes : forall cf pl xs d r,
  reachable_x cf pl xs -> up (c_phase (ts_conn (xs_t xs))) = true -> c_holdns (ts_conn (xs_t xs)) <> 0 ->
  xstep cf pl xs d (XConn IHold) = Some r ->
  ts_last_rx (xs_t xs) + c_holdns (ts_conn (xs_t xs)) <= ts_now (xs_t xs) + d.
Proof.
  intros cf pl xs d [xs' a] Hr Hup Hh Hs.
  exact (no_early_expiry cf pl _ d _ (proj1 (reachable_xinv cf pl xs Hr)) Hup Hh (x_conn_is_tstep _ _ _ _ _ _ _ Hs)).
Qed.
Print Assumptions c06_no_early_expiry_with_writes.

Theorem c06_reset_action : forall cf pl xs d k xs' acts,
  c_holdns (ts_conn (xs_t xs)) <> 0 -> xstep cf pl xs d (XReset k) = Some (xs', acts) ->
  acts = [AArmKA (c_holdns (ts_conn (xs_t xs)) / 3)]
  /\ ts_ka (xs_t xs') = Some (ts_now (xs_t xs) + d + c_holdns (ts_conn (xs_t xs)) / 3)
  /\ ts_conn (xs_t xs') = ts_conn (xs_t xs) /\ ts_hold (xs_t xs') = ts_hold (xs_t xs).
Proof.
  intros cf pl xs d k xs' acts Hh Hs. apply xstep_reset in Hs as (_ & Hc & Hx & Hs). cbv zeta in Hs.
  destruct (N.eqb_spec (c_holdns (ts_conn (xs_t xs))) 0); [contradiction|]. destruct Hs as [-> Hk]. auto.
Qed.
Print Assumptions c06_reset_action.

(* hold time 0 and local writes: nothing is armed, nothing fires *)
Theorem c06_zero_with_writes : forall cf pl xs d,
  reachable_x cf pl xs -> up (c_phase (ts_conn (xs_t xs))) = true -> c_holdns (ts_conn (xs_t xs)) = 0 ->
  xstep cf pl xs d (XConn IHold) = None /\ xstep cf pl xs d (XConn IKA) = None
  /\ (forall k xs' acts, xstep cf pl xs d (XReset k) = Some (xs', acts) ->
        acts = [] /\ ts_ka (xs_t xs') = None /\ ts_hold (xs_t xs') = None /\ xs_resets xs' = xs_resets xs)
  /\ (forall b xs' acts, xstep cf pl xs d (XWrite b) = Some (xs', acts) ->
        ts_ka (xs_t xs') = None /\ ts_hold (xs_t xs') = None).
Proof.
  intros cf pl xs d Hr Hup Hh. apply reachable_xinv in Hr as (Ht & _).
  pose proof (fun i Hi => x_conn_none cf pl xs d i (zero_hold_never_fires cf pl _ d i Ht Hup Hh Hi)) as Hn.
  apply tinv_up in Ht; [|exact Hup]. rewrite Hh in Ht. destruct Ht as [Hth Htk].
  split; [auto|]. split; [auto|]. split.
  - intros k xs' acts Hs. apply xstep_reset in Hs as (_ & _ & Hx & Hs). cbv zeta in Hs. rewrite Hh in Hs.
    destruct Hs as (-> & Hk & Hc). rewrite Hk, Hx. auto.
  - intros b xs' acts Hs. unfold xstep in Hs. destruct (est _); [|discriminate]. injection Hs as <- <-. auto.
Qed.
Print Assumptions c06_zero_with_writes.

Theorem c06_resets_le_writes : forall cf pl xs, reachable_x cf pl xs -> xs_resets xs <= xs_writes xs.
Proof. intros cf pl xs Hr. destruct (reachable_xinv cf pl xs Hr) as (_ & _ & _ & _ & _ & Hc). lia. Qed.
Print Assumptions c06_resets_le_writes.

(* non-vacuity: hold 9 s; Established at 2 s with one UPDATE written inside OnEstablished; a plugin write at 3 s;
   the manager serves the two resets at 3.5 s and 3.6 s (out of order); deadline = 3.6 s + 3 s; the timer cannot
   fire at 6.5 s and does at 6.6 s; largest latency 1.6 s (the write at 2 s served at 3.6 s) *)
Example c06_writes_example :
  let cf := mkConf 167772161 65001 65000 9 in
  let pl := mkPlug None (fun _ => None) [[0;0;0;0]] in
  let o := mkOpen 4 65000 30 167772162 [[mkCap 65 [0;0;253;232]]] in
  let s := 1000000000 in
  let pre := [(1 * s, XConn (IRd (RMsg (MOpen o)))); (0, XConn IApprove); (1 * s, XConn (IRd (RMsg MKeepalive)));
              (0, XConn IApprove); (1 * s, XWrite [0;0;0;0]); (s / 2, XReset 1); (s / 10, XReset 0)] in
  match xrun cf pl (xinit 0) pre with
  | Some (xs, _) => c_phase (ts_conn (xs_t xs)) = PEstablished /\ xs_writes xs = 2 /\ xs_resets xs = 2
               /\ xs_pending xs = [] /\ xs_maxlat xs = 16 * s / 10 /\ last_tx xs = 3 * s
               /\ ts_ka (xs_t xs) = Some (66 * s / 10)
               /\ xstep cf pl xs (29 * s / 10) (XConn IKA) = None
               /\ (exists r, xstep cf pl xs (3 * s) (XConn IKA) = Some r)
  | None => False
  end.
Proof. vm_compute. repeat split. eexists. reflexivity. Qed.

(* the runner the correspondence check drives for these theorems (extracted op 62: every reset token served at once) is a conservative extension of the
   runner every other connection-level comparison uses (op 60): same actions in the same order apart from additional
   keep-alive arm operations, on every input sequence without timer expiries *)
From Verif Require Import Dispatch TimedWTie.
Theorem c06_op62_conservative : forall cf pl ins xs,
  forallb no_timer ins = true ->
  ts_conn (xs_t (fst (xrun_auto cf pl xs ins))) = fst (conn_run_auto cf pl (ts_conn (xs_t xs)) ins)
  /\ filter not_armka (snd (xrun_auto cf pl xs ins)) = filter not_armka (snd (conn_run_auto cf pl (ts_conn (xs_t xs)) ins)).
Proof.
  intros cf pl ins xs. apply (xrun_auto_sim cf pl (fun _ => True) (fun a b => filter not_armka a = filter not_armka b)); auto.
  - intros a b a' b' H H'. rewrite !filter_app, H, H'. reflexivity.
  - intros xs0 i xs' a _ Hi E. apply xstep_served_spec in E; [|exact Hi].
    destruct (conn_step cf pl (ts_conn (xs_t xs0)) i). destruct E as (Hc & a2 & -> & Hf & _).
    rewrite filter_app, Hf, app_nil_r. auto.
Qed.
Print Assumptions c06_op62_conservative.

(* the latency term cannot be dropped: the manager re-arms from the instant it serves the token, so a reachable state has its
   keep-alive deadline later than last-KEEPALIVE-or-UPDATE + H/3 (by the 0.6 s the token waited, in this run).  This is why the
   property says "about" a third; on the implementation the wait is a goroutine rendezvous (microseconds, measured by the live part) *)
Theorem c06_latency_term_is_needed : exists cf pl xs dl,
  reachable_x cf pl xs /\ up (c_phase (ts_conn (xs_t xs))) = true /\ c_holdns (ts_conn (xs_t xs)) <> 0
  /\ ts_ka (xs_t xs) = Some dl /\ last_tx xs + c_holdns (ts_conn (xs_t xs)) / 3 < dl.
Proof.
  pose (cf := mkConf 167772161 65001 65000 9).
  pose (pl := mkPlug None (fun _ => None) []).
  pose (o := mkOpen 4 65000 30 167772162 [[mkCap 65 [0;0;253;232]]]).
  pose (s := 1000000000).
  pose (ins := [(1 * s, XConn (IRd (RMsg (MOpen o)))); (0, XConn IApprove); (1 * s, XConn (IRd (RMsg MKeepalive)));
                (0, XConn IApprove); (1 * s, XWrite [0;0;0;0]); (6 * s / 10, XReset 0)]).
  destruct (xrun cf pl (xinit 0) ins) as [[xs acts]|] eqn:E; [|vm_compute in E; discriminate].
  exists cf, pl, xs, (66 * s / 10).
  split; [exists 0, ins, acts; exact E|].
  vm_compute in E. injection E as <- _. vm_compute. repeat split; try reflexivity. discriminate.
Qed.
Print Assumptions c06_latency_term_is_needed.

(* when the plugin writes nothing inside OnEstablished the two runners (op 62, op 60) perform exactly the same actions *)
Theorem c06_op62_exact : forall cf pl ins xs,
  pl_est_writes pl = [] -> xs_pending xs = [] -> forallb no_timer ins = true ->
  snd (xrun_auto cf pl xs ins) = snd (conn_run_auto cf pl (ts_conn (xs_t xs)) ins).
Proof.
  intros cf pl ins xs He Hp Hn. apply (xrun_auto_sim cf pl (fun xs => xs_pending xs = []) eq); auto.
  - intros a b a' b' -> ->. reflexivity.
  - intros xs0 i xs' a Hp0 Hi E. apply xstep_served_spec in E; [|exact Hi].
    pose proof (count_upd_zero cf pl (ts_conn (xs_t xs0)) i He) as Hu.
    destruct (conn_step cf pl (ts_conn (xs_t xs0)) i). destruct E as (Hc & a2 & -> & _ & Hz).
    destruct (Hz Hp0 Hu) as [-> Hp']. rewrite app_nil_r. auto.
Qed.
Print Assumptions c06_op62_exact.
