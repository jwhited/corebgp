(* C14 — the OPEN corebgp sends reflects configuration and plugin capabilities. *)
From Verif Require Import Base Packet PacketSpec OpenSpec PacketProofs OpenProofs.

(* For every configuration and capability list: if the intended OPEN (version 4,
   AS or AS_TRANS, hold time, router id, one capabilities parameter = 4-octet-AS
   capability then the plugin's capabilities minus code 65) is representable, the
   encoder emits exactly its canonical encoding as one well-formed message;
   otherwise it emits nothing. *)
Theorem c14_open_sent : forall asn hold id caps,
  cfg_wf asn hold id caps = true ->
  open_encode (new_open_message asn hold id caps) =
  if open_repr (intended_open asn hold id caps)
  then Some (spec_frame_enc 1 (spec_open_body (intended_open asn hold id caps)))
  else None.
Proof. exact open_sent_spec. Qed.
Print Assumptions c14_open_sent.

(* hence nothing malformed reaches the wire: whatever is emitted strict-parses as
   one OPEN message whose body decodes to the intended OPEN (all four nested
   length octets agree, by C15's round-trip theorem) *)
Theorem c14_no_malformed : forall asn hold id caps m,
  cfg_wf asn hold id caps = true ->
  open_encode (new_open_message asn hold id caps) = Some m ->
  exists body, spec_frame_parse m = Some (1, body)
            /\ open_decode body = Ok (intended_open asn hold id caps).
Proof.
  intros asn hold id caps m Hc H. rewrite open_sent_spec in H by assumption.
  destruct (open_repr (intended_open asn hold id caps)) eqn:Er; [|discriminate].
  injection H as <-. exists (spec_open_body (intended_open asn hold id caps)).
  split; [|apply open_roundtrip, Er].
  apply spec_frame_parse_enc; [apply open_body_fits, Er|reflexivity].
Qed.
Print Assumptions c14_no_malformed.
