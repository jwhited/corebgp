(* C13 — only connections from configured peers to the configured address are served
   (admission decision of the server). *)
From Verif Require Import Base Server ServerSpec.

Theorem c13_accepted_iff : forall s src dst dst_ok,
  (server_accepts s src dst dst_ok = HandTo src <->
   spec_accepts (abs s)
     (fun a => match lookup a (s_peers s) with
               | Some (_, o) => if is_valid (o_local o) then Some (o_local o) else None
               | None => None end) src dst dst_ok = true)
  /\ (server_accepts s src dst dst_ok = Refuse \/ server_accepts s src dst dst_ok = HandTo src).
Proof.
  intros s src dst dst_ok.
  unfold server_accepts, spec_accepts, abs.
  destruct (lookup src (s_peers s)) as [[c o]|]; [|split; [split; discriminate|left; reflexivity]].
  destruct (is_valid (o_local o)).
  - destruct (dst_ok && addr_eqb (o_local o) dst); split; try (split; congruence); auto.
  - split; [split; reflexivity|right; reflexivity].
Qed.
Print Assumptions c13_accepted_iff.

(* peer side (Layer C), every interleaving: an inbound connection handed to the manager is
   refused exactly when an inbound FSM exists, the outbound FSM is Established or the peer is held
   down; a refused connection changes nothing; an accepted one creates the inbound FSM *)
From Verif Require Import Closure Peer PeerProofs PeerCorollaries.
Theorem c13_busy : forall p d tr s s',
  run sys label step (init p d) tr = Some s -> step s LMInConn = Some s' ->
  let busy := s_hold s || present (snd (s_fsm s)) || st_eqb (fst (s_state s)) Established in
  s_refused s' = busy /\ (busy = true -> core_eqb s s' = true)
  /\ (busy = false -> present (snd (s_fsm s')) = true /\ fconn (snd (s_fsm s')) = true).
Proof. intros p d tr s s' _. apply inconn_step. Qed.
Print Assumptions c13_busy.
