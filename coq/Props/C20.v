(* C20 — peer registry behaves as a consistent map and rejects unusable configs. *)
From Verif Require Import Base Server ServerSpec ServerProofs.

(* AddPeer accepts exactly the usable configurations *)
Theorem c20_validate_iff : forall c o, opts_validate o && cfg_validate c o = usable c o.
Proof. exact validate_iff_usable. Qed.
Print Assumptions c20_validate_iff.

Theorem c20_router_id : forall r, new_server_ok r = true <-> a_kind r = A4.
Proof. intros r. unfold new_server_ok, is4. destruct (a_kind r); cbn; split; congruence. Qed.
Print Assumptions c20_router_id.

(* every registry operation refines the abstract map keyed by remote address: results
   (ErrPeerAlreadyExists, ErrPeerNotExist, configurations, ListPeers = exactly the present
   configurations), effect on the map, no side effect on rejection, Serve/Close lifecycle *)
Theorem c20_refines : forall s op,
  inv s ->
  let (s', out) := server_step s op in
  spec_step (abs s) (s_serving s) (s_closed s) op out (abs s') (s_serving s') (s_closed s').
Proof. exact step_refines. Qed.
Print Assumptions c20_refines.

(* the invariant (distinct valid keys; serving => every registered peer runs, not serving
   => none runs) holds initially and after every operation sequence *)
Theorem c20_init_inv : inv server_init.
Proof. split; [split; [intros k v []|constructor]|reflexivity]. Qed.
Print Assumptions c20_init_inv.

Theorem c20_step_inv : forall s op, inv s -> inv (fst (server_step s op)).
Proof. exact step_inv. Qed.
Print Assumptions c20_step_inv.

Theorem c20_run_inv : forall ops s, inv s -> Forall inv (run_states s ops).
Proof. exact (run_states_Forall inv step_inv). Qed.
Print Assumptions c20_run_inv.

(* API orders that must neither restart nor disturb a server (C05: no sequence of documented calls may break it) *)
Theorem c20_serve_while_serving : forall s,
  s_serving s = true -> s_closed s = false -> server_step s OServe = (s, SServeBusy).
Proof. exact serve_while_serving. Qed.
Print Assumptions c20_serve_while_serving.

Theorem c20_listener_failure_is_final : forall s, s_serving s = true ->
  let s' := fst (server_step s OBreak) in s_closed s' = true /\ s_serving s' = false /\ s_running s' = [].
Proof. intros s Hs. unfold server_step. rewrite Hs. repeat split. Qed.
Print Assumptions c20_listener_failure_is_final.

Theorem c20_finished_server_never_serves : forall ops s,
  inv s -> s_closed s = true -> s_serving s = false ->
  Forall (fun st => s_serving st = false /\ s_running st = []) (run_states s ops).
Proof. exact finished_server_never_serves. Qed.
Print Assumptions c20_finished_server_never_serves.
