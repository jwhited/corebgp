(* C17 — UpdateDecoder reports errors with the RFC 7606 approach they require. *)
From Verif Require Import Base Packet Errors Update UpdateSpec UpdateErrProofs UpdateProofs ErrorProofs.

(* callbacks returning nil: nil iff the sections are consistent, the attribute walk ends
   cleanly and the mandatory attributes are present whenever routes are announced; with
   inconsistent lengths or a body shorter than 4 a bare Notification (3,1)/(3,0) *)
Theorem c17_nil_iff_clean : forall sc b,
  nil_script sc -> wf_bytes b = true ->
  match spec_sections b with
  | None => exists n, update_decode sc b = Ok ([], Some (ENotif n)) /\ n_code n = 3
                      /\ n_sub n = (if blen b <? 4 then 0 else 1) /\ n_data n = []
  | Some (W, A, Nl) =>
      exists e,
        update_decode sc b =
          Ok (CWr W :: map item_call (fst (attr_items A))
                ++ match snd (attr_items A) with EndDupMP => [] | _ => [CNl Nl] end, e)
        /\ (e = None <-> snd (attr_items A) = EndClean /\ missing_attrs (fst (attr_items A)) Nl = false)
  end.
Proof.
  intros sc b Hnil _. destruct (decode_events sc b) as (e & H & _ & Hn).
  unfold spec_calls_script, spec_err_events in *.
  destruct (spec_sections b) as [[[W A] Nl]|] eqn:Es.
  2:{ rewrite update_decode_sections, Es. eexists. split; [reflexivity|]. repeat split. }
  destruct (attr_items A) as [items aend]. cbn [fst snd].
  rewrite !Hnil, (attr_cb_events_nil sc Hnil), firstn_all in *. cbn [has_notif_o olist app] in *.
  exists e. split; [exact H|]. rewrite Hn. unfold missing_event.
  destruct aend; [destruct (missing_attrs items Nl)| |]; cbn [app]; split;
    try discriminate; try (intros [? ?]; discriminate); auto.
Qed.
Print Assumptions c17_nil_iff_clean.

(* any callback behaviour: Decode returns (no panic) ... *)
Theorem c17_total : forall sc b,
  wf_bytes b = true -> exists calls e, update_decode sc b = Ok (calls, e).
Proof. intros sc b _. apply decode_total. Qed.
Print Assumptions c17_total.

(* ... and never returns nil when a callback it invoked returned an error *)
Theorem c17_callback_error_reported : forall sc b calls,
  wf_bytes b = true -> update_decode sc b = Ok (calls, None) ->
  forall j, (j < length calls)%nat -> sc j = None.
Proof.
  intros sc b calls _ H j Hj. destruct (decode_events sc b) as (e & He & _ & Hn). rewrite He in H. injection H as <- ->.
  pose proof (callback_errors_contained sc b) as Hc. rewrite (proj1 Hn eq_refl) in Hc.
  inversion Hc as [l Hl| |]. symmetry in Hl. apply (cb_errors_nil sc _ _ Hl). lia.
Qed.
Print Assumptions c17_callback_error_reported.

(* UpdateNotificationFromErr: nil to nil, otherwise the first leaf (pre-order) of the
   strongest class present: Notification > treat-as-withdraw > attribute-discard >
   other UpdateError > generic UPDATE Message Error *)
Theorem c17_from_err : forall e, unfe e = spec_unfe e.
Proof. exact unfe_spec. Qed.
Print Assumptions c17_from_err.

Theorem c17_from_err_nil_iff : forall e, unfe e = None <-> e = None.
Proof.
  intros e.
  split; [|intros ->; reflexivity]. destruct e as [e|]; [|reflexivity].
  unfold unfe. set (a := unfe_walk e _). destruct (a_n a), (a_taw a), (a_ad a), (a_ue a); discriminate.
Qed.
Print Assumptions c17_from_err_nil_iff.

(* any callback behaviour (stateful, any error class at any position): Decode makes exactly the
   specification's calls cut at the first callback error that contains a Notification, and the
   error tree it returns has exactly these leaves, in this order: every error the callbacks
   returned up to that point, the structural findings (Notification (3,1) for a repeated MP
   attribute; treat-as-withdraw with (3,0) for an attribute overrunning the block; treat-as-withdraw
   with Missing Well-known Attribute (3,3,[code]) when routes are announced without ORIGIN/AS_PATH) *)
Theorem c17_errors_exact : forall sc b,
  wf_bytes b = true ->
  exists e, update_decode sc b = Ok (spec_calls_script sc b, e)
            /\ oleaves e = flat_map leaves (spec_err_events sc b).
Proof. intros sc b _. destruct (decode_events sc b) as (e & H & L & _). exists e. split; assumption. Qed.
Print Assumptions c17_errors_exact.

(* "contains every error the callbacks returned up to the point decoding stopped", in order *)
Theorem c17_contains_callback_errors : forall sc b,
  subseq_of (cb_errors sc 0 (length (spec_calls_script sc b))) (spec_err_events sc b).
Proof. exact callback_errors_contained. Qed.
Print Assumptions c17_contains_callback_errors.

(* the notification UpdateNotificationFromErr derives from Decode's result is the first-by-severity
   choice over exactly that event list *)
Theorem c17_notification_of_result : forall sc b calls x,
  wf_bytes b = true -> update_decode sc b = Ok (calls, Some x) ->
  unfe (Some x) = spec_unfe (Some (EJoin (spec_err_events sc b))).
Proof.
  intros sc b calls x _ H. destruct (decode_events sc b) as (e & He & Hc). rewrite He in H. injection H as _ ->.
  exact (collects_unfe x _ Hc).
Qed.
Print Assumptions c17_notification_of_result.

(* the structural classes the property names are present whenever decoding was not stopped earlier *)
Theorem c17_structural_classes : forall sc b W A Nl,
  spec_sections b = Some (W, A, Nl) -> has_notif_o (sc O) = false ->
  snd (fst (attr_cb_events sc 1 (length (fst (attr_items A))))) = false ->
  match snd (attr_items A) with
  | EndDupMP => In (ENotif (mkNotif 3 1 [])) (spec_err_events sc b)
  | EndOverrun c => In (ETaw c (Some (mkNotif 3 0 []))) (spec_err_events sc b)
  | EndClean => True
  end
  /\ (snd (attr_items A) <> EndDupMP -> missing_attrs (fst (attr_items A)) Nl = true ->
      let m := if existsb (N.eqb 1) (map item_code (fst (attr_items A))) then 2 else 1 in
      In (ETaw m (Some (mkNotif 3 3 [m]))) (spec_err_events sc b)).
Proof.
  intros sc b W A Nl Es E0 Hs. unfold spec_err_events. rewrite Es.
  destruct (attr_items A) as [items aend]. cbn [fst snd] in *. rewrite E0.
  destruct (attr_cb_events sc 1 (length items)) as [[cbs stopped] n]. cbn [fst snd] in Hs. subst stopped.
  split.
  - destruct aend; [exact I| |]; apply in_or_app; right; apply in_or_app; right; left; reflexivity.
  - intros Hd Hm. cbv zeta. unfold missing_event. rewrite Hm.
    destruct aend as [|c|]; [| |congruence]; apply in_or_app; right; apply in_or_app; right.
    + left. reflexivity.
    + right. left. reflexivity.
Qed.
Print Assumptions c17_structural_classes.

(* non-vacuity: NLRI 10.0.0.0/8 with only ORIGIN present, the ORIGIN callback returns an
   attribute-discard error, the NLRI callback a treat-as-withdraw error *)
Example c17_events_example :
  let b := [0;0; 0;4; 64;1;1;0; 8;10] in
  let sc := fun k => match k with 1%nat => Some (EDiscard 1 None) | 2%nat => Some (ETaw 0 None) | _ => None end in
  spec_err_events sc b = [EDiscard 1 None; ETaw 2 (Some (mkNotif 3 3 [2])); ETaw 0 None]
  /\ update_decode sc b = Ok ([CWr []; CPa 1 64 [0]; CNl [8; 10]],
                             Some (EJoin [EJoin [EJoin [EJoin [EDiscard 1 None]; ETaw 2 (Some (mkNotif 3 3 [2]))]]; ETaw 0 None])).
Proof. vm_compute. split; reflexivity. Qed.
