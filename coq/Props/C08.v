(* C08 — receive-side header validation and stream framing. *)
From Verif Require Import Base Consts Packet PacketSpec Conn ConnProofs ReaderProofs PacketProofs.

(* messages are delimited solely by the length field, independent of segmentation *)
Theorem c08_segmentation_independent : forall chunks,
  snd (feed_all rinit chunks) = snd (feed rinit (concat chunks)).
Proof.
  intros chunks. rewrite feed_all_init, (feed_parse rinit) by reflexivity. cbn [r_buf rinit app].
  destruct (parse (concat chunks)) as [[e r] st]. reflexivity.
Qed.
Print Assumptions c08_segmentation_independent.

(* every well-formed message preceding the rest of the stream is processed *)
Theorem c08_wellformed_prefix : forall l ms tail,
  Forall2 good_msg l ms ->
  parse (frames l ++ tail) = (let '(evs, r, st) := parse tail in (map RMsg ms ++ evs, r, st)).
Proof. exact parse_frames. Qed.
Print Assumptions c08_wellformed_prefix.

(* the first fault: exactly the messages before it, then its notification; nothing after *)
Theorem c08_first_fault : forall l ms bad tail e,
  Forall2 good_msg l ms -> read_one bad = RFault e ->
  fst (fst (parse (frames l ++ bad ++ tail))) = map RMsg ms ++ [e]
  /\ snd (parse (frames l ++ bad ++ tail)) = true.
Proof.
  intros l ms bad tail e Hg Hb. pose proof (read_one_app bad tail) as Ha. rewrite Hb in Ha.
  rewrite (parse_frames l ms _ Hg), parse_unfold, Ha. split; reflexivity.
Qed.
Print Assumptions c08_first_fault.

Theorem c08_bad_marker : forall s,
  19 <= blen s -> take 16 s <> marker -> read_one s = RFault (RErrNotif (mkNotif 1 1 [])).
Proof. exact read_one_bad_marker. Qed.
Print Assumptions c08_bad_marker.

Theorem c08_bad_length : forall l1 l0 t rest,
  let len := l1 * 256 + l0 in (len < 19 \/ 4096 < len) ->
  read_one (marker ++ l1 :: l0 :: t :: rest) = RFault (RErrNotif (mkNotif 1 2 [])).
Proof.
  intros l1 l0 t rest len Hl. rewrite read_one_header. change (get16 l1 l0) with len.
  replace ((len <? 19) || (4096 <? len)) with true by lia. reflexivity.
Qed.
Print Assumptions c08_bad_length.

Theorem c08_bad_type : forall t body rest,
  blen body <= 4077 -> t < 256 -> (t < 1 \/ 4 < t) ->
  read_one (spec_frame_enc t body ++ rest) = RFault (RErrNotif (mkNotif 1 3 [t])).
Proof.
  intros t body rest Hb _ Hbad. rewrite read_one_frame by assumption.
  unfold message_from_bytes, c_openMessageType, c_updateMessageType, c_notificationMessageType, c_keepAliveMessageType.
  replace (t =? 1) with false by lia. replace (t =? 2) with false by lia.
  replace (t =? 3) with false by lia. replace (t =? 4) with false by lia. reflexivity.
Qed.
Print Assumptions c08_bad_type.

(* in each of OpenSent/OpenConfirm/Established the reader's notification is written, then close *)
Theorem c08_notification_then_close : forall cf pl st n,
  live (c_phase st) = true ->
  conn_step cf pl st (IRd (RErrNotif n)) =
  (mkC PDone (c_holdns st) (c_nupd st),
   [AWrite (notif_encode n)] ++ teardown (c_phase st) ++ [AReturn 1 (ENotifOut n)]).
Proof. intros cf pl [ph h k] n Hl. destruct ph; try discriminate; reflexivity. Qed.
Print Assumptions c08_notification_then_close.

(* a NOTIFICATION reaches the wire with exactly its code, subcode and data *)
Theorem c08_notification_on_wire : forall n,
  notif_repr n = true ->
  spec_frame_parse (notif_encode n) = Some (3, spec_notif_body n)
  /\ notif_decode (spec_notif_body n) = Some n.
Proof. exact notif_roundtrip. Qed.
Print Assumptions c08_notification_on_wire.
