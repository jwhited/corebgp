(* C11 — reconnection liveness and retry pacing after non-damping faults (logic part). *)
From Coq Require Import List Bool NArith.
Import ListNotations.
From Verif Require Import Closure Peer PeerProofs PeerCorollaries.

(* a passive peer never has an outbound FSM, hence never dials — in every reachable state *)
Theorem c11_passive_never_dials : forall d s, reachable true d s -> fst (s_fsm s) = None.
Proof.
  intros d s Hr. pose proof (reachable_inv _ _ _ good_passive Hr ltac:(cbn; tauto)) as H. destruct Hr as [tr Hr].
  unfold good_passive in H. rewrite (run_passive _ _ _ Hr) in H.
  destruct (fst (s_fsm s)); [discriminate|reflexivity].
Qed.
Print Assumptions c11_passive_never_dials.

(* after an inbound session ends the inbound FSM is retired and the outbound FSM enabled at once *)
Theorem c11_resume : forall s t,
  st_ltb (t_to t) (t_from t) = true -> t_to t <> Established ->
  handle s DIn t = [OStop DIn; OEnable DOut].
Proof.
  intros s t Hd He. unfold handle. cbn [dir_eqb andb]. rewrite Hd.
  destruct (t_to t); try reflexivity. contradiction.
Qed.
Print Assumptions c11_resume.

Theorem c11_enable_outbound : forall s,
  s_passive s = false -> fst (s_fsm s) = None ->
  fst (s_fsm (enable s DOut)) = Some (mkF (FOffer (mkT Disabled Idle)) false false false false).
Proof. intros s Hp Hn. unfold enable. cbn [dir_eqb andb get]. rewrite Hp, Hn. reflexivity. Qed.
Print Assumptions c11_enable_outbound.

(* a transport fault or Cease (an error that is not of the damping kind) never starts a hold-down *)
Theorem c11_no_damping : forall p d tr s l s',
  run sys label step (init p d) tr = Some s -> step s l = Some s' -> damp_ok s l s' = true.
Proof. exact reachable_damp_ok. Qed.
Print Assumptions c11_no_damping.

(* ---- timed runs of the outbound FSM's Idle / Connect / Active states (Dial.v), any length ---- *)
From Verif Require Import Dial DialProofs.

(* every attempt made from Idle is at least the idle-hold time after the previous attempt made from Idle;
   every attempt made on connect-retry expiry at least the connect-retry time after the previous attempt *)
Theorem c11_dial_pacing : forall cf t0 ins s,
  drun cf (dinit t0) ins = Some s -> spaced cf (ds_dials s).
Proof. intros cf t0 ins s H. exact (proj1 (drun_inv cf ins _ _ (dinv_init cf t0) H)). Qed.
Print Assumptions c11_dial_pacing.

(* while every attempt is refused (none is made on connect-retry expiry) successive attempts are at least
   the idle-hold time apart: never back-to-back redialling *)
Theorem c11_refused_attempts_spaced : forall cf l,
  spaced cf l -> forallb (fun x => snd x) l = true -> consecutive_gap (dc_idle_hold cf) l.
Proof.
  intros cf l.
  induction l as [|[t1 b1] r IH]; [trivial|]. cbn [forallb spaced snd]. intros Hs Hall.
  apply andb_true_iff in Hall as [-> Hr]. destruct Hs as [Ha Hs]. specialize (IH Hs Hr).
  destruct r as [|[t2 b2] r']; [exact I|]. cbn [forallb snd] in Hr. apply andb_true_iff in Hr as [-> _].
  split; assumption.
Qed.
Print Assumptions c11_refused_attempts_spaced.

(* non-vacuity: idle-hold 5 s, connect-retry 2 s: first attempt at once, refused; the next cannot be made
   at 4.9 s and is made at 5 s; a stalled attempt is abandoned and re-made when connect-retry expires *)
Local Open Scope N_scope.
Example c11_dial_example :
  let cf := mkDC 5000 2000 in
  drun cf (dinit 0) [(0, DIdleFire); (10, DDialErr); (4890, DIdleFire)] = None
  /\ (exists s, drun cf (dinit 0) [(0, DIdleFire); (10, DDialErr); (4990, DIdleFire); (2000, DRetryFireErr)] = Some s
                /\ map fst (ds_dials s) = [7000; 5000; 0]).
Proof. vm_compute. split; [reflexivity|eexists; split; reflexivity]. Qed.
