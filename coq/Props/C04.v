(* C04 — outbound byte stream is whole well-formed messages. *)
From Verif Require Import Base Packet PacketSpec Conn ConnProofs FrameProofs.

(* every write the connection state machine performs is one whole well-formed message *)
Theorem c04_every_write_wellformed : forall cf pl st i,
  plugin_ok pl -> input_ok i -> cf_ras cf < 4294967296 ->
  Forall wf_frame (writes (snd (conn_step cf pl st i))).
Proof.
  intros cf pl st i Hp Hi _.
  destruct (conn_step_shape cf pl st i)
    as [st i _|ph h k i cb k' d e _ Hc Ho|ph h k _|h k o|h k|h k|h k b _|h k|h k|ph h k _ _];
    cbn [snd]; unfold restart_hold.
  (* the shapes that write nothing *)
  all: try (try destruct (h =? 0); constructor; fail).
  - (* closing: the only write is the reply, and its NOTIFICATION has an origin *)
    rewrite !writes_app. replace (writes cb) with (@nil bytes) by (destruct Hc; reflexivity).
    replace (writes (teardown ph)) with (@nil bytes) by (destruct ph; reflexivity).
    destruct e; repeat constructor. apply notif_encode_wf, (origin_repr cf pl _ _ _ Hp Hi Ho).
  - (* stopped while waiting for the manager: Cease *)
    repeat constructor. apply notif_encode_wf. reflexivity.
  - (* OPEN accepted: KEEPALIVE *)
    destruct (negotiated cf o =? 0); repeat constructor; apply keepalive_wf.
  - (* entering Established: the plugin's UPDATEs *)
    destruct Hp as (_ & _ & Hw). induction Hw; cbn; constructor; [apply update_frame_wf|]; assumption.
  - (* the keep-alive timer: KEEPALIVE *)
    repeat constructor. apply keepalive_wf.
Qed.
Print Assumptions c04_every_write_wellformed.

(* WriteUpdate(b), b up to 4077 bytes: one UPDATE whose body equals b *)
Theorem c04_update_frame : forall b, blen b <= 4077 -> wf_frame (update_frame b).
Proof. exact update_frame_wf. Qed.
Print Assumptions c04_update_frame.

(* whole messages are self-delimiting: any serialisation of atomic well-formed writes (from any
   number of goroutines) parses back to exactly those messages, in the order they were written *)
Theorem c04_frames_self_delimiting : forall (fs : list (N * bytes)) fuel,
  Forall (fun tb => blen (snd tb) <= 4077 /\ known_type (fst tb) = true) fs ->
  (length fs < fuel)%nat ->
  spec_stream_parse fuel (flat_map (fun tb => spec_frame_enc (fst tb) (snd tb)) fs) = Some fs.
Proof. exact frames_self_delimiting. Qed.
Print Assumptions c04_frames_self_delimiting.

(* ---- any number of concurrent writers (Writers.v): every interleaving of WriteUpdate calls, the FSM's
   own writes and session ends, with one conn.Write per message (atomic: trusted runtime fact) ---- *)
From Verif Require Import Writers WritersProofs.

(* each nil-returning WriteUpdate(b) appears exactly once as an UPDATE with body b, successive calls of one
   writer in call order, on the connection the writer is bound to, and nothing else is attributed to it *)
Theorem c04_exactly_once_in_order : forall es c w,
  from_writer (fst (wrun winit es)) c w = map update_frame (acked es (snd (wrun winit es)) c w).
Proof. intros es c w. exact (writer_exactly_once es winit c w). Qed.
Print Assumptions c04_exactly_once_in_order.

(* the remote's strict parser recovers exactly the appended frames from the byte stream of every connection *)
Theorem c04_stream_is_whole_messages : forall es c,
  Forall wevent_ok es ->
  let s := fst (wrun winit es) in
  spec_stream_parse (S (length (frames_of s c))) (wire_of s c) = Some (map frame_tb (frames_of s c)).
Proof.
  intros es c Hes s. rewrite wire_is_frames. apply wf_frames_parse, wire_frames_wellformed; [exact Hes|constructor].
Qed.
Print Assumptions c04_stream_is_whole_messages.

(* once the session has ended: WriteUpdate fails, and no frame is ever added to that connection again
   (writes go only to the connection named in the call: a writer never reaches a later connection) *)
Theorem c04_after_end_fails : forall s c w b, ended s c = true -> wstep s (WWrite c w b) = (s, Some false).
Proof. intros s c w b H. cbn [wstep]. rewrite H. reflexivity. Qed.
Print Assumptions c04_after_end_fails.

Theorem c04_nothing_after_end : forall es s c, ended s c = true -> frames_of (fst (wrun s es)) c = frames_of s c.
Proof.
  intros es s c H. apply (wrun_inv (fun s' => ended s' c = true /\ frames_of s' c = frames_of s c)); [|split; trivial].
  intros s' e _ [He <-]. split; [apply ended_mono; exact He|].
  destruct (frames_of_step s' e c) as [Hf|(f & _ & Hf & _)]; congruence.
Qed.
Print Assumptions c04_nothing_after_end.

Example c04_writers_example :
  let es := [WWrite 1 7 [1]; WFsm 1 keepalive_encode; WWrite 1 8 [2]; WWrite 1 7 [3]; WEnd 1; WWrite 1 7 [4]; WWrite 2 9 [5]] in
  snd (wrun winit es) = [Some true; None; Some true; Some true; None; Some false; Some true]
  /\ from_writer (fst (wrun winit es)) 1 7 = [update_frame [1]; update_frame [3]]
  /\ frames_of (fst (wrun winit es)) 2 = [update_frame [5]].
Proof. vm_compute. repeat split. Qed.
