(* C07 — connection collision is resolved per RFC 4271 6.8, in every arrival order. *)
From Coq Require Import List Bool.
Import ListNotations.
From Verif Require Import Peer PeerProofs PeerCorollaries.

(* the decision: when FSM i asks for OpenConfirm while the other FSM is in OpenConfirm, connection i
   survives iff it was initiated by the dominant speaker (i = outbound iff locally initiated);
   whichever FSM reaches OpenConfirm second *)
Theorem c07_decision : forall s i t,
  t_to t = OpenConfirm -> get (s_state s) (other i) = OpenConfirm ->
  (i = DIn -> st_ltb (t_to t) (t_from t) = false) ->
  handle s i t = if Bool.eqb (s_dominant s) (dir_eqb i DOut) then [OCollide i t] else [OStop i].
Proof. intros s i t Ht Ho Hd. rewrite handle_openconfirm, Ho by assumption. reflexivity. Qed.
Print Assumptions c07_decision.

Theorem c07_established_first : forall s i t,
  t_to t = OpenConfirm -> get (s_state s) (other i) = Established ->
  (i = DIn -> st_ltb (t_to t) (t_from t) = false) ->
  handle s i t = [OStop i].
Proof. intros s i t Ht Ho Hd. rewrite handle_openconfirm, Ho by assumption. reflexivity. Qed.
Print Assumptions c07_established_first.

(* all orders and timings (closure over every interleaving, including both outcomes of the
   three-way select): whenever the manager is back at its loop and the peer is not being shut
   down, at most one FSM is at or beyond OpenConfirm — exactly one connection survived *)
Theorem c07_resolved : forall p d s,
  reachable p d s -> at_loop s = true -> s_pclosed s = false ->
  ~ (ge_oc (fst (s_state s)) = true /\ ge_oc (snd (s_state s)) = true)
  /\ ~ (pc_ge_oc (fst (s_fsm s)) = true /\ pc_ge_oc (snd (s_fsm s)) = true).
Proof.
  intros p d s Hr Ha Hp. pose proof (reachable_inv _ _ _ good_coll Hr ltac:(cbn; tauto)) as H.
  unfold good_coll in H. rewrite Ha, Hp in H. apply andb_true_iff in H as [A B].
  split; intros [X Y]; [rewrite X, Y in A|rewrite X, Y in B]; discriminate.
Qed.
Print Assumptions c07_resolved.

(* the loser gets Cease before its connection is closed (monitor bit never set) *)
Theorem c07_loser_ceased : forall p d s,
  reachable p d s -> fbad (fst (s_fsm s)) = false /\ fbad (snd (s_fsm s)) = false.
Proof. exact cease_before_close. Qed.
Print Assumptions c07_loser_ceased.
