(* C09 — state-dependent message handling follows RFC 4271 8.2.2 / RFC 6608. *)
From Verif Require Import Base Packet Conn ConnProofs.

(* every (state, message) pair that is not legal progress and not a NOTIFICATION: exactly
   NOTIFICATION (FSM Error, subcode 1/2/3 for OpenSent/OpenConfirm/Established, data = the
   message's type octet), then close (and OnClose if Established), back to Idle *)
Theorem c09_unexpected_message : forall cf pl st m,
  live (c_phase st) = true -> legal (c_phase st) m = false -> (forall n, m <> MNotif n) ->
  let n := mkNotif 5 (state_sub (c_phase st)) [msg_type m] in
  conn_step cf pl st (IRd (RMsg m)) =
  (mkC PDone (c_holdns st) (c_nupd st),
   [AWrite (notif_encode n)] ++ teardown (c_phase st) ++ [AReturn 1 (ENotifOut n)]).
Proof.
  intros cf pl [ph h k] m Hl Hleg Hn. cbn [c_phase] in *.
  destruct ph; try discriminate; destruct m as [o|b|n0|]; try discriminate;
    try (exfalso; eapply Hn; reflexivity); reflexivity.
Qed.
Print Assumptions c09_unexpected_message.

(* the legal pairs are exactly OPEN/OpenSent, KEEPALIVE/OpenConfirm, KEEPALIVE+UPDATE/Established *)
Theorem c09_legal_table : forall ph m,
  legal ph m = true <->
  (ph = POpenSent /\ (exists o, m = MOpen o)) \/ (ph = POpenConfirm /\ m = MKeepalive)
  \/ (ph = PEstablished /\ (m = MKeepalive \/ exists b, m = MUpdate b)).
Proof.
  intros ph m. split.
  - destruct ph, m; try discriminate; intros _.
    + left. split; [reflexivity|]. exists o. reflexivity.
    + right. left. split; reflexivity.
    + right. right. split; [reflexivity|]. right. exists b. reflexivity.
    + right. right. split; [reflexivity|]. left. reflexivity.
  - intros [[-> [o ->]]|[[-> ->]|[-> [->|[b ->]]]]]; reflexivity.
Qed.
Print Assumptions c09_legal_table.

Theorem c09_notification_received : forall cf pl st n,
  live (c_phase st) = true ->
  conn_step cf pl st (IRd (RMsg (MNotif n))) =
  (mkC PDone (c_holdns st) (c_nupd st), teardown (c_phase st) ++ [AReturn 1 (ENotifIn n)]).
Proof. intros cf pl [ph h k] n Hl. destruct ph; try discriminate; reflexivity. Qed.
Print Assumptions c09_notification_received.

Theorem c09_notification_no_reply : forall cf pl st n,
  live (c_phase st) = true -> writes (snd (conn_step cf pl st (IRd (RMsg (MNotif n))))) = [].
Proof.
  intros cf pl st n Hl. rewrite c09_notification_received by assumption. cbn [snd].
  destruct (c_phase st); try discriminate; reflexivity.
Qed.
Print Assumptions c09_notification_no_reply.

Theorem c09_tcp_failure_silent : forall cf pl st,
  live (c_phase st) = true ->
  writes (snd (conn_step cf pl st (IRd RErrIO))) = []
  /\ c_phase (fst (conn_step cf pl st (IRd RErrIO))) = PDone.
Proof. intros cf pl [ph h k] Hl. destruct ph; try discriminate; split; reflexivity. Qed.
Print Assumptions c09_tcp_failure_silent.

(* OnClose exactly once for an Established session, whatever happens (callback monitor) *)
Theorem c09_onclose_once : forall cf pl ins,
  exists m', mon_run (false, 0) (snd (conn_run cf pl cinit ins)) = Some m'
             /\ (c_phase (fst (conn_run cf pl cinit ins)) = PDone -> snd m' <> 1).
Proof. exact callbacks_wellformed. Qed.
Print Assumptions c09_onclose_once.

(* the connection ends in the middle of a message: after the complete messages before it the
   reader reports a plain I/O error — no phantom message is decoded, no NOTIFICATION-carrying error arises — and the state
   machine ends silently (c09_tcp_failure_silent) *)
From Verif Require Import ReaderProofs.
Theorem c09_eof_mid_message : forall l ms part,
  Forall2 good_msg l ms -> read_one part = RWait ->
  read_stream (frames l ++ part) true = map RMsg ms ++ [RErrIO].
Proof.
  intros l ms part Hg Hp. unfold read_stream. rewrite (feed_parse rinit _ eq_refl). cbn [r_buf rinit app].
  rewrite (parse_frames l ms part Hg), (parse_unfold part), Hp. cbn [feed_eof r_stopped].
  rewrite app_nil_r. reflexivity.
Qed.
Print Assumptions c09_eof_mid_message.

Theorem c09_incomplete_is_waiting : forall l1 l0 t rest,
  let len := l1 * 256 + l0 in
  19 <= len <= 4096 -> 19 + blen rest < len -> read_one (marker ++ l1 :: l0 :: t :: rest) = RWait.
Proof.
  intros l1 l0 t rest len Hl Hs. rewrite read_one_header. change (get16 l1 l0) with len.
  replace ((len <? 19) || (4096 <? len)) with false by lia.
  replace (19 + blen rest <? len) with true by lia. reflexivity.
Qed.
Print Assumptions c09_incomplete_is_waiting.
