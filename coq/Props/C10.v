(* C10 — shutdown from any state is prompt, complete and leak-free (logic part). *)
From Coq Require Import List Bool Lia.
Import ListNotations.
From Verif Require Import Peer PeerProofs PeerCorollaries.

(* after Close/DeletePeer (peer.closeCh closed), in every reachable state that is not yet done
   some shutdown step is enabled: none of them waits for a timer or for network input (they are the
   closeCh branches, the manager's micro-operations and goroutine exits) *)
Theorem c10_progress : forall p d s,
  reachable p d s -> s_pclosed s = true -> s_mdone s = false ->
  exists l s', progress_label s l = true /\ step s l = Some s'.
Proof.
  intros p d s Hr Hp Hd. pose proof (reachable_inv _ _ _ good_progress Hr ltac:(cbn; tauto)) as H.
  unfold good_progress in H. rewrite Hp, Hd in H.
  apply existsb_exists in H as (l & _ & Hl). apply andb_true_iff in Hl as [Hl He].
  unfold enabled in He. destruct (step s l) as [s'|] eqn:Es; [|discriminate]. exists l, s'. auto.
Qed.
Print Assumptions c10_progress.

(* every shutdown step strictly decreases a rank: no sequence of them is longer than rk s *)
Theorem c10_bounded : forall p d n s s2,
  reachable p d s -> s_pclosed s = true -> shutdown_path s n s2 ->
  n <= rk s /\ reachable p d s2 /\ rk s2 + n <= rk s.
Proof.
  intros p d n s s2 Hr Hp Hpath. induction Hpath as [s|s l s1 n s2 Hl Hs _ IH]; [repeat split; [lia|exact Hr|lia]|].
  pose proof (shutdown_rank p d s l s1 Hr Hp Hl Hs) as Hlt. apply step_frame in Hs as Hf.
  destruct (IH (reachable_step _ _ _ _ _ Hr Hs)) as (A & B & C); [tauto|]. repeat split; [lia|exact B|lia].
Qed.
Print Assumptions c10_bounded.

(* by the time the manager is done: no FSM goroutine, no pending operation, no timer *)
Theorem c10_all_gone : forall p d s,
  reachable p d s -> s_mdone s = true ->
  fst (s_fsm s) = None /\ snd (s_fsm s) = None /\ s_ops s = [] /\ s_timer s = false.
Proof. exact stopped_means_gone. Qed.
Print Assumptions c10_all_gone.

(* a connection of an FSM that was approved into OpenSent/OpenConfirm/Established is never closed
   by a stop without a Cease NOTIFICATION first *)
Theorem c10_cease_first : forall p d s,
  reachable p d s -> fbad (fst (s_fsm s)) = false /\ fbad (snd (s_fsm s)) = false.
Proof. exact cease_before_close. Qed.
Print Assumptions c10_cease_first.
