(* C16 — UpdateDecoder partitions an UPDATE exactly as its length fields dictate. *)
From Verif Require Import Base Errors Update UpdateSpec UpdateProofs UpdateErrProofs.

(* For every byte string and callbacks that return nil, the sequence of callback
   invocations (withdrawn bytes; each first-occurrence attribute in wire order with type,
   flags and value honouring Extended Length; later duplicates skipped; a repeated
   MP_REACH/MP_UNREACH aborts; an overrun ends attribute iteration but the NLRI is still
   delivered) is exactly the specification's spec_calls. *)
Theorem c16_calls : forall sc b,
  nil_script sc -> wf_bytes b = true ->
  exists e, update_decode sc b = Ok (spec_calls b, e).
Proof.
  intros sc b Hnil _. destruct (decode_events sc b) as (e & H & _).
  rewrite (spec_calls_script_nil sc b Hnil) in H. exists e. exact H.
Qed.
Print Assumptions c16_calls.

(* length fields that overrun the message abort decoding before any callback runs,
   whatever the callbacks are *)
Theorem c16_overrun_first : forall sc b,
  wf_bytes b = true -> spec_sections b = None ->
  exists n, update_decode sc b = Ok ([], Some (ENotif n)).
Proof. intros sc b _ Hs. rewrite update_decode_sections, Hs. eexists. reflexivity. Qed.
Print Assumptions c16_overrun_first.

(* a concrete, non-trivial instance: duplicate ORIGIN skipped, extended length honoured *)
Example c16_example :
  spec_calls [0; 1; 0;  0; 12;  64; 1; 1; 0;  64; 1; 1; 2;  80; 2; 0; 0;  8; 10]
  = [CWr [0]; CPa 1 64 [0]; CPa 2 80 []; CNl [8; 10]].
Proof. vm_compute. reflexivity. Qed.

(* for every callback behaviour the calls are the specification's, cut at the first callback error
   that contains a Notification (wire order, exact type/flags/value; nothing after the stop) *)
Theorem c16_calls_any_callbacks : forall sc b,
  wf_bytes b = true -> exists e, update_decode sc b = Ok (spec_calls_script sc b, e).
Proof. intros sc b _. destruct (decode_events sc b) as (e & H & _). exists e. exact H. Qed.
Print Assumptions c16_calls_any_callbacks.
