(* C05 — decoder half: the exported decoding entry points return instead of panicking
   for every byte slice (Go panics are explicit results of the model). *)
From Verif Require Import Base Consts Packet Update UpdateSpec
                          BaseLemmas PacketProofs PrefixProofs AttrProofs UpdateProofs TotalProofs.
From Verif Require Import AddPathProofs.

Theorem c05_update_decode : forall sc b, wf_bytes b = true -> returns (update_decode sc b).
Proof.
  intros sc b _. destruct (decode_total sc b) as (c & e & ->). split; discriminate.
Qed.
Print Assumptions c05_update_decode.

Theorem c05_attr_decoders : forall code flags b,
  flags < 256 -> wf_bytes b = true -> blen b < 65536 -> returns (attr_decode code flags b).
Proof.
  intros code flags b _ Hw Hb.
  destruct (N.eq_dec code 2) as [->|N2]; [exact (spec_returns _ _ _ (aspath_decode_spec flags b Hb))|].
  destruct (N.eq_dec code 6) as [->|N6]; [exact (spec_returns _ _ _ (atomic_aggregate_partial flags b Hb))|].
  pose proof (attr_decode_sound code flags b N2 N6 Hw Hb) as H. unfold attr_sound in H.
  destruct (rfc_flags code) eqn:Hr; [exact (spec_returns _ _ _ H)|].
  rewrite attr_decode_other by assumption. split; discriminate.
Qed.
Print Assumptions c05_attr_decoders.

Theorem c05_prefixes : forall ipv6 b, wf_bytes b = true ->
  decode_prefixes b ipv6 <> Panic /\ decode_prefixes b ipv6 <> OutOfFuel.
Proof. exact prefixes_total. Qed.
Print Assumptions c05_prefixes.

Theorem c05_addpath_prefixes : forall ipv6 b, wf_bytes b = true ->
  decode_ap_prefixes b ipv6 <> Panic /\ decode_ap_prefixes b ipv6 <> OutOfFuel.
Proof. exact ap_prefixes_total. Qed.
Print Assumptions c05_addpath_prefixes.

Theorem c05_mp_splitters : forall flags b cb,
  flags < 256 -> blen b < 65536 -> returns (mp_reach flags b cb) /\ returns (mp_unreach flags b cb).
Proof.
  intros flags b cb _ Hb. rewrite mp_reach_spec, mp_unreach_spec by assumption. repeat split; discriminate.
Qed.
Print Assumptions c05_mp_splitters.

Theorem c05_addpath_tuples : forall b, wf_bytes b = true ->
  aptuples_decode b <> Panic /\ aptuples_decode b <> OutOfFuel.
Proof. exact aptuples_decode_total. Qed.
Print Assumptions c05_addpath_tuples.

(* what the reader applies to every received message body *)
Theorem c05_message_from_bytes : forall b t, wf_bytes b = true -> returns (message_from_bytes b t).
Proof.
  intros b t Hw. unfold message_from_bytes, returns.
  destruct (t =? c_openMessageType).
  - destruct (open_decode_total b Hw) as [H1 H2]. destruct (open_decode b); split; congruence.
  - destruct (t =? c_updateMessageType); [split; discriminate|].
    destruct (t =? c_notificationMessageType); [destruct (notif_decode b); split; discriminate|].
    destruct (t =? c_keepAliveMessageType); split; discriminate.
Qed.
Print Assumptions c05_message_from_bytes.

(* API-order half (registry / lifecycle model, Server.v): a second Serve on a serving server is refused and changes
   nothing; a server whose Serve has returned (Close, failing listener) is never restarted by any later call sequence.
   (The panic these orders caused on the pinned tree is finding D16, repaired.) *)
From Verif Require Import Server ServerProofs.
Theorem c05_second_serve_refused : forall s,
  s_serving s = true -> s_closed s = false -> server_step s OServe = (s, SServeBusy).
Proof. exact serve_while_serving. Qed.
Print Assumptions c05_second_serve_refused.

Theorem c05_finished_server_never_serves : forall ops s,
  inv s -> s_closed s = true -> s_serving s = false ->
  Forall (fun st => s_serving st = false /\ s_running st = nil) (run_states s ops).
Proof. exact finished_server_never_serves. Qed.
Print Assumptions c05_finished_server_never_serves.
