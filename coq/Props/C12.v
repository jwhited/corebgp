(* C12 — hold-down schedule: 60 s at first, doubling with each further protocol error up to
   300 s, back to 60 s once 300 s pass without one. *)
From Verif Require Import Base Server ServerSpec ServerProofs.

(* a streak: the first error after >= 300 s of quiet (or the first ever), then errors each
   less than 300 s after the previous one: the i-th gets min(60 s * 2^i, 300 s) *)
Theorem c12_delay_schedule : forall t0 times d,
  (d_last d = None /\ d_delay d = 0) \/ (exists t, d_last d = Some t /\ A <= t0 - t) ->
  streak_from t0 times ->
  forall i dl, nth_error (damp_run d (t0 :: times)) i = Some dl -> dl = spec_streak_delay i.
Proof. intros t0 times d Hf Hs i dl. exact (streak_delays i times d t0 0 dl (damp_step_fresh d t0 Hf) Hs). Qed.
Print Assumptions c12_delay_schedule.

Example c12_schedule_values :
  map spec_streak_delay [0; 1; 2; 3; 4]%nat = [sec 60; sec 120; sec 240; sec 300; sec 300].
Proof. exact schedule_values. Qed.

(* peer manager (Layer C), every interleaving *)
From Verif Require Import Closure Peer PeerProofs PeerCorollaries.

(* while held down (manager at its loop) no FSM exists: both connections were dropped, nothing
   dials; inbound connections are refused (c13_busy) *)
Theorem c12_hold_down_no_fsm : forall p d s,
  reachable p d s -> at_loop s = true -> s_hold s = true -> fst (s_fsm s) = None /\ snd (s_fsm s) = None.
Proof.
  intros p d s Hr Ha Hh. pose proof (reachable_inv _ _ _ good_hold Hr ltac:(cbn; tauto)) as H.
  unfold good_hold in H. rewrite Ha, Hh in H.
  destruct (fst (s_fsm s)), (snd (s_fsm s)); try discriminate. auto.
Qed.
Print Assumptions c12_hold_down_no_fsm.

(* the retry timer is armed exactly while held down, so the period ends and the peer is retried *)
Theorem c12_hold_down_timer : forall p d s,
  reachable p d s -> at_loop s = true -> s_pclosed s = false -> s_hold s = s_timer s.
Proof.
  intros p d s Hr Ha Hp. pose proof (reachable_inv _ _ _ good_hold_timer Hr ltac:(cbn; tauto)) as H.
  unfold good_hold_timer in H. rewrite Ha, Hp in H. apply eqb_prop. exact H.
Qed.
Print Assumptions c12_hold_down_timer.

(* exactly an error of the damping kind (a NOTIFICATION other than Cease, sent or received)
   received by the manager schedules a hold-down; Cease, transport errors, stops never do *)
Theorem c12_only_protocol_errors : forall p d tr s l s',
  run sys label step (init p d) tr = Some s -> step s l = Some s' -> damp_ok s l s' = true.
Proof. exact reachable_damp_ok. Qed.
Print Assumptions c12_only_protocol_errors.

(* recorded finding D14: the full statement "every protocol error an FSM has to report reaches the
   manager" is false of the faithful model; the witness trace is replayed on the implementation
   by scenario known.D14.error-dropped-by-stop *)
From Verif Require Import PeerFindings.
Theorem c12_every_protocol_error_reported_refuted : ~ every_protocol_error_reported.
Proof.
  intros H. specialize (H false true d14_trace). vm_compute in H. discriminate (H _ DOut eq_refl).
Qed.
Print Assumptions c12_every_protocol_error_reported_refuted.

(* what does hold: a report can be lost only while that FSM's closeCh is closed, i.e. while the manager
   is stopping it (the other FSM reaching Established, or a collision stop); an error the manager
   does receive is handled as c12_only_protocol_errors says *)
Theorem c12_error_reported_partial : forall p d tr s i,
  run sys label step (init p d) tr = Some s ->
  (match get (s_fsm s) i with Some f => f_closed f | None => false end) = false -> report_lost s i = false.
Proof.
  intros p d tr s i _ Hc. unfold report_lost. destruct (get (s_fsm s) i) as [f|]; [|reflexivity].
  rewrite Hc. destruct (f_pc f) as [| | |? ? []| |]; reflexivity.
Qed.
Print Assumptions c12_error_reported_partial.
