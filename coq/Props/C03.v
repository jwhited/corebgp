(* C03 — inbound UPDATEs reach the handler exactly once, in order, byte-exact. *)
From Verif Require Import Base Packet Conn ConnProofs ReaderProofs.

(* any segmentation of a stream of UPDATEs (bodies 0..4077) and KEEPALIVEs yields exactly
   those messages, in order, bodies byte-identical *)
Theorem c03_reader_delivery : forall l chunks,
  Forall upd_or_ka l -> concat chunks = frames l ->
  snd (feed_all rinit chunks) = map (fun tb => RMsg (msg_of tb)) l.
Proof.
  intros l chunks Hl Hc. rewrite feed_all_init, Hc.
  assert (Hg : Forall2 good_msg l (map msg_of l)).
  { clear Hc. induction Hl; cbn [map]; constructor; [apply upd_or_ka_good; assumption|assumption]. }
  pose proof (parse_frames l (map msg_of l) [] Hg) as Hp. rewrite app_nil_r, parse_nil in Hp. rewrite Hp.
  cbn [fst]. rewrite app_nil_r. apply map_map.
Qed.
Print Assumptions c03_reader_delivery.

(* while Established and the handler returns nil: one handler call per UPDATE, in order, with
   the body; KEEPALIVEs produce none; the session stays Established *)
Theorem c03_handler_calls : forall cf pl l st,
  c_phase st = PEstablished -> (forall k, pl_handler pl k = None) ->
  let (st', acts) := conn_run cf pl st (map (fun tb => IRd (RMsg (msg_of tb))) l) in
  handler_calls acts = update_bodies l /\ c_phase st' = PEstablished
  /\ c_nupd st' = (c_nupd st + length (update_bodies l))%nat.
Proof.
  intros cf pl.
  induction l as [|tb l IH]; intros st Hp Hh.
  - cbn. repeat split; auto.
  - destruct st as [ph h k]. cbn [c_phase] in Hp. subst ph. cbn [map conn_run].
    destruct (established_step cf pl h k tb (Hh k)) as (a1 & -> & Ha1).
    specialize (IH (mkC PEstablished h (k + length (update_bodies [tb]))) eq_refl Hh).
    destruct (conn_run cf pl _ _) as [st' acts]. destruct IH as (I1 & I2 & I3).
    replace (update_bodies (tb :: l)) with (update_bodies [tb] ++ update_bodies l)
      by (unfold update_bodies; cbn [flat_map]; rewrite app_nil_r; reflexivity).
    rewrite handler_calls_app, Ha1, I1, I3, app_length. cbn [c_nupd]. repeat split; [assumption|lia].
Qed.
Print Assumptions c03_handler_calls.

(* a non-nil Notification from the handler: sent verbatim, session ends with OnClose, and no
   later UPDATE of that connection is delivered *)
Theorem c03_handler_notification : forall cf pl h k b n later,
  pl_handler pl k = Some n ->
  conn_run cf pl (mkC PEstablished h k) (IRd (RMsg (MUpdate b)) :: later) =
  (mkC PDone h (S k),
   [AHandler b; AWrite (notif_encode n); ACloseConn; AStopHold; AStopKA; AOnClose; AReturn 1 (ENotifOut n)]).
Proof.
  intros cf pl h k b n later Hn. cbn [conn_run conn_step c_phase c_holdns c_nupd]. rewrite Hn.
  unfold finish. cbn [c_phase c_holdns c_nupd teardown app].
  rewrite (done_absorbing cf pl later (mkC PDone h (S k)) eq_refl). reflexivity.
Qed.
Print Assumptions c03_handler_notification.

(* no UPDATE before OnEstablished has returned or after OnClose has begun: the callback monitor
   accepts every action sequence the connection can produce *)
Theorem c03_window : forall cf pl ins,
  exists m', mon_run (false, 0) (snd (conn_run cf pl cinit ins)) = Some m'
             /\ (c_phase (fst (conn_run cf pl cinit ins)) = PDone -> snd m' <> 1).
Proof. exact callbacks_wellformed. Qed.
Print Assumptions c03_window.
