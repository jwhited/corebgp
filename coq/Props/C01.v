(* C01 — one Established session per peer; well-formed plugin callback history. *)
From Coq Require Import List NArith.
Import ListNotations.
From Verif Require Import Peer PeerProofs PeerCorollaries.
From Verif Require ConnProofs.

(* Layer C: for every interleaving of the peer manager and the two FSM goroutines (any trace of any
   length of the transition system, for passive/active and dominant/non-dominant peers), the two
   FSMs are never both inside the Established state function — so OnEstablished/handler/OnClose
   of the two connections cannot overlap *)
Theorem c01_one_established : forall p d s,
  reachable p d s -> ~ (in_est (fst (s_fsm s)) = true /\ in_est (snd (s_fsm s)) = true).
Proof.
  intros p d s Hr [H1 H2]. pose proof (reachable_inv _ _ _ good_mutex Hr ltac:(cbn; tauto)) as H.
  unfold good_mutex in H. rewrite H1, H2 in H. discriminate.
Qed.
Print Assumptions c01_one_established.

(* a transition to Established is approved only after the other FSM was stopped and its goroutine
   has finished (OStop = close closeCh and wait for doneCh) *)
Theorem c01_established_stops_other : forall s i t,
  t_to t = Established -> handle s i t = [OStop (other i); OReply i t].
Proof. intros s i t Ht. unfold handle. rewrite Ht. reflexivity. Qed.
Print Assumptions c01_established_stops_other.

(* by the time Close/DeletePeer returned (manager done) no FSM goroutine exists: every
   OnEstablished has had its OnClose (with c01_callbacks below) and no callback can start *)
Theorem c01_stopped_means_gone : forall p d s,
  reachable p d s -> s_mdone s = true ->
  fst (s_fsm s) = None /\ snd (s_fsm s) = None /\ s_ops s = [] /\ s_timer s = false.
Proof. exact stopped_means_gone. Qed.
Print Assumptions c01_stopped_means_gone.

(* Layer B, per connection and for every input sequence: OnOpenMessage at most once and before
   OnEstablished; handler calls only between OnEstablished and OnClose; OnClose exactly once for
   an Established session *)
Theorem c01_callbacks : forall cf pl ins,
  exists m', ConnProofs.mon_run (false, 0%N) (snd (Conn.conn_run cf pl Conn.cinit ins)) = Some m'
             /\ (Conn.c_phase (fst (Conn.conn_run cf pl Conn.cinit ins)) = Conn.PDone -> snd m' <> 1%N).
Proof. exact ConnProofs.callbacks_wellformed. Qed.
Print Assumptions c01_callbacks.
